(* C11 — revision negotiation and revision-zero interoperability. *)
From Coq Require Import List ZArith.
From GT Require Import Negotiate NegotiateProofs.
From GTgen Require Import Params.
Import ListNotations.
Local Open Scope Z_scope.

Theorem C11_highest_common : forall mine theirs, Forall (fun r => 0 <= r) mine ->
  let theirs' := match theirs with [] => [0] | _ => theirs end in
  match choose_rev mine theirs with
  | Some r => is_highest_common mine theirs' r
  | None => forall r, In r mine -> In r theirs' -> False
  end.
Proof. exact choose_rev_spec. Qed.
Print Assumptions C11_highest_common.

Theorem C11_empty_list_is_revision_zero : forall mine, In 0 mine -> Forall (fun r => 0 <= r) mine ->
  choose_rev mine [] = Some 0.
Proof. exact empty_means_zero. Qed.
Print Assumptions C11_empty_list_is_revision_zero.

Theorem C11_no_common_revision_fails : forall mine theirs, theirs <> [] ->
  (forall r, In r mine -> In r theirs -> False) -> choose_rev mine theirs = None.
Proof. exact no_common_fails. Qed.
Print Assumptions C11_no_common_revision_fails.

Theorem C11_matrix : forall c_adv s_adv c_dis s_dis,
  let m := tunnel_mode c_adv s_adv c_dis s_dis in
  flow_control_used m = (c_adv && s_adv && negb c_dis && negb s_dis)%bool /\
  (match m with ModeRev _ se => se = (c_adv && s_adv)%bool | ModeFail => False end) /\
  (match m with ModeRev r _ => r = if (c_adv && s_adv && negb c_dis && negb s_dis)%bool then 1 else 0 | ModeFail => False end).
Proof. exact mode_matrix. Qed.
Print Assumptions C11_matrix.

Theorem C11_revision_lists : revisions_default = [0; 1] /\ revisions_fc_disabled = [0].
Proof. exact revisions_facts. Qed.
Print Assumptions C11_revision_lists.
