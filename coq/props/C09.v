(* C09 — no peer input can crash, wedge or bloat an endpoint. The model's step functions are
   total (every frame is classified), buffering is bounded for arbitrary frame sizes, and a
   stream-level violation is separated from a tunnel-level one. Panic-freedom of the Go code
   itself is tied by the raw-peer runs with panic capture (partial: see DESIGN.md section 10). *)
From Coq Require Import List ZArith.
From GT Require Import Frames FramesProofs Recvq RecvqProofs Tables TablesProofs ParamsFacts.
Import ListNotations.

(* any frame sequence whatsoever: the queue never holds more than the advertised window *)
Theorem C09_bounded_buffering : forall (T : Type) (measure : T -> N) W (ops : list (rq_op T)),
  let q := fold_left (rq_apply measure) ops (rq_init T W) in
  RecvqProofs.Inv measure W q /\ (rq_queued measure q <= W)%N.
Proof. exact bounded_always. Qed.
Print Assumptions C09_bounded_buffering.

(* an overrun fails that stream only: the receiver state is untouched *)
Theorem C09_overrun_refused : forall (T : Type) (measure : T -> N) (q q' : rq T) x,
  rq_accept measure q x = (q', AccOverrun) -> q' = q /\ (rq_win q < measure x)%N /\ rq_closed q = false.
Proof. exact overrun_unchanged. Qed.
Print Assumptions C09_overrun_refused.

(* reassembly classifies every frame; after a violation it stays failed and yields no message *)
Theorem C09_reassembly_failure_is_sticky : forall (A : Type) (fs : list (dframe A)),
  fst (rrun RFailed fs) = RFailed /\ gots (snd (rrun RFailed fs)) = [].
Proof. exact rrun_failed. Qed.
Print Assumptions C09_reassembly_failure_is_sticky.

(* ids: old or duplicate => tunnel error; finished => ignored; never seen => tunnel error *)
Theorem C09_id_classification_old : forall s id cl rev m, (id <= s_last s)%Z -> snd (st_create s id cl rev m) = CTunnelErr.
Proof. exact create_refuses_old_ids. Qed.
Print Assumptions C09_id_classification_old.

Theorem C09_never_seen_is_tunnel_error : forall s id, (s_last s < id)%Z -> ~ In id (s_active s) -> st_get s id = GTunnelErr.
Proof. exact never_seen_id_is_tunnel_error. Qed.
Print Assumptions C09_never_seen_is_tunnel_error.

(* documented status codes of the stream-level rejections, as read from the source *)
Theorem C09_rejection_codes : GTgen.Params.create_rejection_codes = [14; 14; 3; 12]%N.
Proof. exact rejection_codes. Qed.
Print Assumptions C09_rejection_codes.

(* code shape, regenerated from the source on every run (see theories/SkelReceiver.v) *)
From Coq Require Import String.
From GT Require Import SkelReceiver.
From GTgen Require Import Params.
Local Open Scope string_scope.
Theorem C09_rev0_accept_shape : skel_noFlowControlReceiver_accept =
  ["call ingestMu.Lock"; "defer call ingestMu.Unlock"; "select"; "recv closed"; "end"; "select"; "send ch"; "recv closed"; "end"].
Proof. exact noFlowControlReceiver_accept_shape. Qed.
Print Assumptions C09_rev0_accept_shape.

(* ---- the server's side of one stream against ANY peer (Rpc.v): whatever frames the serve loop is
   handed for the id, in whatever order, what the server emits for it conforms, with at most one close ---- *)
From GT Require Import RpcProofs RpcSystem.
Theorem C09_server_stream_conforms_against_any_peer : forall strict ls v em,
  vrun strict v_init ls = Some (v, em) -> gs_run em <> GsBad /\ count_close em <= 1.
Proof. exact server_stream_conforms_against_any_peer. Qed.
Print Assumptions C09_server_stream_conforms_against_any_peer.
