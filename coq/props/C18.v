(* C18 — a grpc-timeout request header becomes exactly that handler deadline.
   Statements only; every proof is [exact <lemma>]. *)
From Coq Require Import List ZArith.
From GT Require Import Timeout TimeoutProofs.
Import ListNotations.
Local Open Scope Z_scope.

(* The parser (model of timeoutFromHeaders, tied to the code by M1) computes
   exactly the duration the gRPC wire specification assigns, on every byte
   string: 1..8 ASCII digits and a unit H M S m u n, value times unit in
   nanoseconds, saturated at 2^63-1; everything else yields no deadline. *)
Theorem C18_exact : forall s : list N, impl_timeout s = spec_timeout s.
Proof. exact impl_timeout_is_spec. Qed.
Print Assumptions C18_exact.

(* explicit form for well-formed values *)
Theorem C18_wellformed : forall ds u k,
  (1 <= length ds <= 8)%nat -> forallb is_digit ds = true -> spec_unit u = Some k ->
  impl_timeout (ds ++ [u]) = Some (Z.min (digits_value ds * k) max_int64).
Proof. exact wellformed_exact. Qed.
Print Assumptions C18_wellformed.

(* saturation, never wrap-around: every deadline is in [0, 2^63-1] *)
Theorem C18_no_wrap : forall s d, impl_timeout s = Some d -> 0 <= d <= max_int64.
Proof. exact timeout_in_range. Qed.
Print Assumptions C18_no_wrap.

(* a malformed header never shortens the deadline (it yields none) *)
Theorem C18_malformed : forall s, malformed s -> impl_timeout s = None.
Proof. exact malformed_never_shortens. Qed.
Print Assumptions C18_malformed.

(* repeated headers: the last value decides, and it is decided by the spec *)
Theorem C18_headers : forall vals, timeout_from_headers vals = spec_from_headers vals.
Proof. exact headers_last_wins. Qed.
Print Assumptions C18_headers.

(* the unit table read from the source on this run is the specification's *)
Theorem C18_unit_table : forall u, lookup_unit u GTgen.Params.timeout_unit_table = spec_unit u.
Proof. exact unit_table_is_spec. Qed.
Print Assumptions C18_unit_table.

(* regression witness: the parser before the repair violates the property *)
Theorem C18_v0_refuted :
  (exists s, malformed s /\ exists d, impl_timeout_v0 s = Some d /\ d < 0) /\
  (exists s d, spec_timeout s = Some d /\ exists d', impl_timeout_v0 s = Some d' /\ d' < 0).
Proof. exact v0_refuted. Qed.
Print Assumptions C18_v0_refuted.
