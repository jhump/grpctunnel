(* C08 — stream ids unique and increasing; one RPC, one handler invocation. *)
From Coq Require Import List ZArith.
From GT Require Import Tables TablesProofs ParamsFacts.
Import ListNotations.
Local Open Scope Z_scope.

(* every allocation yields the next id: distinct, increasing *)
Theorem C08_alloc_fresh_increasing : forall c c' id, ct_alloc c = (c', Some id) ->
  id = c_last c + 1 /\ c_last c' = id /\ c_created c' = true /\ c_active c' = id :: c_active c.
Proof. exact alloc_fresh_increasing. Qed.
Print Assumptions C08_alloc_fresh_increasing.

(* on the wire, under every interleaving: new_stream ids strictly increase and every other
   frame follows the new_stream of its id *)
Theorem C08_wire_order : forall ls t, trun tun0 ls = Some t -> wfq (s_last (t_s t)) (t_seen t) (t_c2s t).
Proof. exact ids_increase_on_the_wire. Qed.
Print Assumptions C08_wire_order.

(* the server refuses an id that is not greater than all it has seen ... *)
Theorem C08_old_id_is_tunnel_error : forall s id cl rev m, id <= s_last s -> snd (st_create s id cl rev m) = CTunnelErr.
Proof. exact create_refuses_old_ids. Qed.
Print Assumptions C08_old_id_is_tunnel_error.

(* ... ignores further frames for ids it has finished with, and treats never-seen ids as an error *)
Theorem C08_finished_id_ignored : forall s id, In id (s_active s) -> id <= s_last s -> st_get (st_remove s id) id = GIgnore.
Proof. exact finished_id_is_ignored. Qed.
Print Assumptions C08_finished_id_ignored.

Theorem C08_never_seen_id_is_error : forall s id, s_last s < id -> ~ In id (s_active s) -> st_get s id = GTunnelErr.
Proof. exact never_seen_id_is_tunnel_error. Qed.
Print Assumptions C08_never_seen_id_is_error.

(* an accepted stream is inserted exactly once (a second new_stream for it is a tunnel error) *)
Theorem C08_accept_once : forall s id cl rev m,
  let '(s', r) := st_create s id cl rev m in
  match r with
  | CTunnelErr => s' = s /\ (In id (s_active s) \/ id <= s_last s)
  | CReject _ => s_last s < id /\ ~ In id (s_active s) /\ s_last s' = id /\ s_active s' = s_active s
  | CAccept => s_last s < id /\ ~ In id (s_active s) /\ s_last s' = id /\ s_active s' = id :: s_active s /\
               cl = false /\ (rev = 0 \/ rev = 1) /\ m = MOk
  end.
Proof. exact create_cases. Qed.
Print Assumptions C08_accept_once.

Theorem C08_initial_last_seen : GTgen.Params.last_seen0 = -1.
Proof. exact last_seen_starts_below_zero. Qed.
Print Assumptions C08_initial_last_seen.

(* code shape, regenerated from the source on every run (see theories/SkelNewStream.v) *)
From Coq Require Import String.
From GT Require Import SkelNewStream.
From GTgen Require Import Params.
Local Open Scope string_scope.
Theorem C08_new_stream_shape : skel_tunnelChannel_newStream =
  ["call streamCreation.Lock"; "defer call streamCreation.Unlock"; "call allocateStream"; "call stream.Send"; "call removeStream"; "go func"].
Proof. exact tunnelChannel_newStream_shape. Qed.
Print Assumptions C08_new_stream_shape.

(* ---- one RPC end to end (Rpc.v), every interleaving ---- *)
From GT Require Import RpcProofs RpcSystem.
(* each started RPC results in at most one handler invocation; exactly one once the stream was accepted *)
Theorem C08_rpc_at_most_one_invocation : forall strict ls s, rrun strict r_init ls = Some s ->
  (n_inv s <= 1)%nat /\ (n_inv s = 1%nat <-> h_live (r_v s) = true).
Proof. exact rpc_at_most_one_invocation. Qed.
Print Assumptions C08_rpc_at_most_one_invocation.
(* each RPC begins with its new-stream frame; the id is never reused, never unknown to the server *)
Theorem C08_rpc_id_accepted_once : forall strict ls s, rrun strict r_init ls = Some s ->
  k_err (r_k s) = false /\ v_err (r_v s) = false.
Proof. exact rpc_tunnel_survives. Qed.
Print Assumptions C08_rpc_id_accepted_once.

(* ---- many RPCs on one tunnel (MultiRpc.v): ids under the creation lock ---- *)
From GT Require Import MultiRpc MultiRpcProofs MultiRpcIds.
(* the new_stream frames are on the wire in strictly increasing id order, one per started RPC *)
Theorem C08_multi_ids_increase_on_the_wire : forall n strict ls m,
  mrun strict (m_init n) ls = Some m -> exists c, (c <= n)%nat /\ newsof (mh_c m) = seq 0 c.
Proof. exact multi_ids_increase_on_the_wire. Qed.
Print Assumptions C08_multi_ids_increase_on_the_wire.
(* the serve loop's test "id <= lastSeen" is exactly "this stream's new_stream was seen": ids are never
   refused although fresh, never accepted although used *)
Theorem C08_multi_lastseen_exact : forall n strict ls m j,
  mrun strict (m_init n) ls = Some m -> (j < n)%nat -> seen (p_v (get m j)) = Nat.ltb j (m_last m).
Proof. exact multi_lastseen_exact. Qed.
Print Assumptions C08_multi_lastseen_exact.
Theorem C08_multi_one_invocation_each : forall strict n ls m i,
  mrun strict (m_init n) ls = Some m -> (i < n)%nat -> (p_n (get m i) <= 1)%nat.
Proof. exact multi_one_invocation_each. Qed.
Print Assumptions C08_multi_one_invocation_each.

(* code shape of the table look-ups the models transcribe (theories/SkelRpc.v) *)

From GT Require Import SkelRpc.

Theorem C08_server_getStream_shape : gskel_tunnelServer_getStream =
  ["call mu.RLock"; "defer call mu.RUnlock"; "if streamID <= lastSeen"; "return"; "fi"; "return"; "return"].
Proof. exact tunnelServer_getStream_shape. Qed.
Print Assumptions C08_server_getStream_shape.
Theorem C08_client_getStream_shape : gskel_tunnelChannel_getStream =
  ["call mu.RLock"; "defer call mu.RUnlock"; "if streamCreated && streamID <= lastStreamID"; "return"; "fi"; "return"; "return"].
Proof. exact tunnelChannel_getStream_shape. Qed.
Print Assumptions C08_client_getStream_shape.
