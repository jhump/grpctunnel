(* C01 — messages arrive exactly once, in order, intact, on the right RPC.
   Data-path theorems (for every payload alphabet A, every message, every legal
   chunking, every chunk limit); the per-RPC end-to-end statement is evaluated on
   every implementation trace by the extracted monitor mon_C01 (MonApp.v). *)
From Coq Require Import List NArith.
From GT Require Import Frames FramesProofs Recvq RecvqProofs.
Import ListNotations.

(* whatever prefix of the frame stream has been consumed, the messages delivered are a
   prefix of the messages submitted: nothing duplicated, reordered, truncated, merged or
   fabricated; with the whole stream consumed the sequence is complete *)
Theorem C01_prefix : forall (A : Type) cmax (mcs : list (list A * list nat)) k,
  Forall (fun mc => legal cmax (snd mc) (fst mc)) mcs ->
  prefix (delivered_of (firstn k (frames_all mcs))) (map fst mcs).
Proof. exact delivered_prefix. Qed.
Print Assumptions C01_prefix.

Theorem C01_complete : forall (A : Type) cmax (mcs : list (list A * list nat)),
  Forall (fun mc => legal cmax (snd mc) (fst mc)) mcs ->
  fst (rrun RIdle (frames_all mcs)) = RIdle /\ delivered_of (frames_all mcs) = map fst mcs.
Proof. exact stream_roundtrip. Qed.
Print Assumptions C01_complete.

(* one message, any legal chunking: byte-for-byte identical *)
Theorem C01_roundtrip : forall (A : Type) cmax (m : list A) cs, legal cmax cs m ->
  rrun RIdle (frames_of m cs) = (RIdle, repeat Need (length cs - 1) ++ [Got m]).
Proof. exact reasm_roundtrip. Qed.
Print Assumptions C01_roundtrip.

(* both senders only ever produce legal chunkings *)
Theorem C01_nofc_sender_legal : forall (A : Type) cmax (m : list A), 0 < cmax -> legal cmax (chunks_nofc cmax m) m.
Proof. exact chunks_nofc_legal. Qed.
Print Assumptions C01_nofc_sender_legal.

Theorem C01_fc_sender_legal : forall (A : Type) cmax ws (m : list A), 0 < cmax ->
  Forall (fun w => 0 < w) ws ->
  list_sum (chunks_fc cmax ws (length m)) = length m -> chunks_fc cmax ws (length m) <> [] ->
  legal cmax (chunks_fc cmax ws (length m)) m.
Proof. exact chunks_fc_legal. Qed.
Print Assumptions C01_fc_sender_legal.

(* no fabrication: a message is only produced by a frame that completes an announced length *)
Theorem C01_no_fabrication : forall (A : Type) (s : rstate A) f s' (m : list A), rstep s f = (s', Got m) ->
  s' = RIdle /\
  ((exists sz d, s = RIdle /\ f = Env sz d /\ m = d /\ lenN m = sz) \/
   (exists sz b d, s = RPart sz b /\ f = More d /\ m = b ++ d /\ lenN m = sz)).
Proof. exact rstep_got. Qed.
Print Assumptions C01_no_fabrication.

(* FIFO hand-off from the receive loop to the reader: the queue returns what was accepted, in
   order (flow control), and a buffered item survives close (revision zero) *)
Theorem C01_queue_fifo : forall (T : Type) (measure : T -> N) (q q' : rq T) x c,
  rq_dequeue measure q = (q', DeqItem x c) ->
  c = measure x /\ rq_items q = x :: rq_items q' /\ rq_win q' = (rq_win q + c)%N /\ rq_cancelled q = false.
Proof. exact dequeue_item. Qed.
Print Assumptions C01_queue_fifo.

Theorem C01_rev0_item_survives_close : forall (T : Type) (r : r0 T) x, r0_slot r = Some x ->
  r0_dequeue (r0_close r) = (mkR0 None true, DeqItem x 0%N) /\
  snd (r0_dequeue (fst (r0_dequeue (r0_close r)))) = DeqNone.
Proof. exact r0_item_survives_close. Qed.
Print Assumptions C01_rev0_item_survives_close.

(* system level: one stream direction end to end (application, chunking sender and its window,
   carrier, receive loop, receiver queue and its window, reading application, credit frames),
   every interleaving of these parties, every message sequence, chunk limit and window *)
From GT Require Import Pipe PipeProofs.
Theorem C01_system_prefix : forall (A : Type) cmax W ls (s : pst A),
  prun cmax (p_init A W) ls = Some s -> prefix (p_delivered s) (p_submitted s).
Proof. exact system_delivered_prefix. Qed.
Print Assumptions C01_system_prefix.

Theorem C01_system_complete : forall (A : Type) cmax W ls (s : pst A),
  prun cmax (p_init A W) ls = Some s -> p_cur s = None -> p_wire s = [] -> p_rq s = [] -> p_delivered s = p_submitted s.
Proof. exact system_complete_when_drained. Qed.
Print Assumptions C01_system_complete.

(* nested tunnels: an inner stream whose carrier is a stream of an outer tunnel (any framing of
   inner frames as outer messages that can be decoded again, any chunk limits and windows at both
   levels, any interleaving of all parties of both levels) delivers exactly what a stream on a
   plain carrier delivers *)
From GT Require Import Nested NestedProofs.
Theorem C01_nested_prefix : forall (A B : Type) (enc : dframe A -> list B) (dec : list B -> option (dframe A)),
  (forall f, dec (enc f) = Some f) ->
  forall cmaxI WI cmaxO WO ls (n : nst A B), nrun enc dec cmaxI cmaxO (n_init A B WI WO) ls = Some n ->
  prefix (p_delivered (n_in n)) (p_submitted (n_in n)).
Proof. exact nested_delivered_prefix. Qed.
Print Assumptions C01_nested_prefix.

Theorem C01_nested_complete : forall (A B : Type) (enc : dframe A -> list B) (dec : list B -> option (dframe A)),
  (forall f, dec (enc f) = Some f) ->
  forall cmaxI WI cmaxO WO ls (n : nst A B), nrun enc dec cmaxI cmaxO (n_init A B WI WO) ls = Some n ->
  p_cur (n_in n) = None -> n_fl n = [] -> p_rq (n_in n) = [] -> p_delivered (n_in n) = p_submitted (n_in n).
Proof. exact nested_complete_when_drained. Qed.
Print Assumptions C01_nested_complete.

(* end of stream: the reader is told "end of stream" only once it has obtained every message
   that was submitted, and never while a data frame is still ahead of the marker - under every
   interleaving of sender, carrier, receive loop, reader and credit flow *)
From GT Require Import PipeEof.
Theorem C01_eof_only_after_everything : forall (A : Type) cmax W ls (s : est A),
  erun cmax (e_init A W) ls = Some s -> e_half s = ESeen -> p_delivered (e_p s) = p_submitted (e_p s).
Proof. exact eof_only_after_everything. Qed.
Print Assumptions C01_eof_only_after_everything.

Theorem C01_eof_never_overtakes_data : forall (A : Type) cmax W ls (s : est A),
  erun cmax (e_init A W) ls = Some s -> (p_wire (e_p s) <> [] \/ p_rq (e_p s) <> []) -> estep cmax s EReadEof = None.
Proof. exact eof_not_before_queued_data. Qed.
Print Assumptions C01_eof_never_overtakes_data.

(* concurrent RPCs on one tunnel: each stream obtains a prefix of what was submitted on that same
   stream, however the streams' frames interleave on the shared carrier *)
From GT Require Import MultiPipe MultiPipeProofs.
Theorem C01_streams_do_not_mix : forall (A : Type) cmax W K, 0 < K ->
  forall n ls (m : mst A) i (s : pst A), mrun cmax K (m_init A W n) ls = Some m ->
  nth_error (m_streams m) i = Some s -> prefix (p_delivered s) (p_submitted s).
Proof. exact multi_delivered_prefix. Qed.
Print Assumptions C01_streams_do_not_mix.
