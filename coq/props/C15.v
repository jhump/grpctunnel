(* C15 — the API is data-race free and thread-safe under concurrent use.
   Partial by nature (DESIGN.md section 10): the Go memory model and the race detector are
   outside Coq. What is proved are the synchronisation protocols themselves, at the level of
   individual atomic steps and for every interleaving: the publication order that makes
   Trailer() / grpc.Trailer targets safe to read after the completion signal, the write-once
   outcome, the sender's wake-up protocol (no lost wake-up, hence no protocol-level deadlock),
   and the exits of every blocking point; and the lock discipline of the source itself, on the
   table of every field access that translator T2 (lockscan) regenerates on each run: any two
   accesses to one field, one of them a write, are separated by construction time, a common
   mutex (which no reachable lock state lets two goroutines hold), a channel-close publication,
   confinement to one goroutine, or a listed exemption; the lock order has no cycle.
   Data races proper are searched for by the free-running stress harness under the race detector
   (M3) on every run. *)
From Coq Require Import List NArith.
From GT Require Import CliFinish CliFinishProofs SenderAtomic SenderAtomicProofs Waits WaitsProofs Access AccessProofs.
From GTgen Require Import AccessTable.
Import ListNotations.

(* read-after-signal: whenever the reader has been released, what it reads was published before,
   by the goroutine that won - under every interleaving of the finishing goroutines and the reader *)
Theorem C15_publication_before_release : forall ls s, cf_run false cf_init ls = Some s -> read_ok s = true.
Proof. exact terminal_result_and_trailers_agree. Qed.
Print Assumptions C15_publication_before_release.

Theorem C15_outcome_written_once : forall ls s w, cf_done s = Some w ->
  forall s', cf_run false s ls = Some s' -> cf_done s' = Some w.
Proof. exact first_writer_wins. Qed.
Print Assumptions C15_outcome_written_once.

(* the lock-free window protocol: no interleaving of load / CAS / wait with add / signal loses a wake-up *)
Theorem C15_no_lost_wakeup : forall cmax, (0 < cmax)%N -> forall w0 msg ls s, (w0 < M32)%N ->
  run cmax (sa_init w0 msg) ls = Some s ->
  sp s = SWait -> (0 < win s)%N -> up s = UIdle -> exists s', step cmax s LWaitTok = Some s'.
Proof. exact never_stranded. Qed.
Print Assumptions C15_no_lost_wakeup.

(* no blocking point without an exit once the stream's context has ended *)
Theorem C15_no_stuck_goroutine : forall client ls s,
  wrun client st0 ls = Some s -> ctx_done s = true -> internal_enabled client s = false -> all_exits s = true.
Proof. exact nothing_hangs_after_context_end. Qed.
Print Assumptions C15_no_stuck_goroutine.

(* regression witness: with the receiver closed before the trailers are stored a reader can be
   released before the write it then races with *)
Theorem C15_close_first_refuted : exists ls s, cf_run true cf_init ls = Some s /\ read_ok s = false.
Proof. exact close_first_refuted. Qed.
Print Assumptions C15_close_first_refuted.

(* the lock discipline of the current source (table regenerated from /repo on every run) *)
Theorem C15_access_discipline :
  (forall a b, In a full_table -> In b full_table ->
     s_field a = s_field b -> (s_write a = true \/ s_write b = true) ->
     s_ctor a = true \/ s_ctor b = true
     \/ (common_lock a b = true /\
         forall ls t1 t2, lreach ls -> t1 <> t2 -> stands_at ls t1 a -> stands_at ls t2 b -> False)
     \/ published a b = true \/ published b a = true
     \/ same_thread a b = true
     \/ exempt exemptions a b = true)
  /\ (forall first ws, ws <> [] -> ~ wait_chain lock_order first first ws) /\ reacquire_count = 0%N.
Proof. exact access_discipline. Qed.
Print Assumptions C15_access_discipline.

(* code shape, regenerated from the source on every run (see theories/SkelFinish.v) *)
From Coq Require Import String.
From GT Require Import SkelFinish.
From GTgen Require Import Params.
Local Open Scope string_scope.
Theorem C15_client_finish_shape : skel_tunnelClientStream_finishStream =
  ["call done.CompareAndSwap"; "defer call cancel"; "call ch.removeStream"; "defer call receiver.close"; "call metaMu.Lock"; "defer call metaMu.Unlock"; "set trailers"; "set gotHeaders"; "close gotHeadersSignal"; "close doneSignal"].
Proof. exact tunnelClientStream_finishStream_shape. Qed.
Print Assumptions C15_client_finish_shape.

(* the ordering behind the three exemptions of the access table: under every interleaving of the
   receive loop, the constructor, any closer, the context and a caller, useRevision / settings are
   never read before they are published; the constructor before repair F15 is refuted *)
From GT Require Import CtorGate.
Theorem C15_settings_never_read_before_published : forall ls s, grun true g_init ls = Some s -> g_bad s = false.
Proof. exact settings_never_read_before_published. Qed.
Print Assumptions C15_settings_never_read_before_published.

Theorem C15_unrepaired_constructor_refuted : exists ls s, grun false g_init ls = Some s /\ g_bad s = true.
Proof. exact unrepaired_constructor_races. Qed.
Print Assumptions C15_unrepaired_constructor_refuted.
