(* C04 — tunnel termination ends every RPC; nothing hangs (safety form: every blocking point
   has an enabled exit in every quiescent state after the stream's context ended - which the
   tunnel's tear-down does for every stream - plus termination of the internal activity). *)
From Coq Require Import List.
From GT Require Import Waits WaitsProofs SenderAtomic SenderAtomicProofs Tables TablesProofs.
Import ListNotations.

Theorem C04_nothing_hangs : forall client ls s,
  wrun client st0 ls = Some s -> ctx_done s = true -> internal_enabled client s = false -> all_exits s = true.
Proof. exact nothing_hangs_after_context_end. Qed.
Print Assumptions C04_nothing_hangs.

Theorem C04_internal_activity_terminates : forall client ls s l s',
  wrun client st0 ls = Some s -> (l = WatcherStep \/ l = FinishStep) -> wstep client s l = Some s' ->
  wmeasure s' < wmeasure s.
Proof. exact internal_activity_terminates. Qed.
Print Assumptions C04_internal_activity_terminates.

(* a sender blocked on its window leaves as soon as its context is done *)
Theorem C04_blocked_sender_released : forall cmax s, sp s = SWait -> cancelled s = true ->
  exists s', step cmax s LWaitCtx = Some s'.
Proof. exact cancel_releases. Qed.
Print Assumptions C04_blocked_sender_released.

(* RPCs started on a finished channel fail at once *)
Theorem C04_start_on_finished_channel_fails : forall c, c_finished c = true -> ct_alloc c = (c, None).
Proof. exact alloc_fails_when_finished. Qed.
Print Assumptions C04_start_on_finished_channel_fails.

(* Stop of a reverse-tunnel server ends every tunnel it still tracks, also after a GracefulStop
   (the guards of the state machine are regenerated from the source: theories/RevServer.v) *)
From GT Require Import RevServer.
Theorem C04_stop_ends_every_tracked_tunnel : forall s, rs_state s <> Closed ->
  rs_open (rs_step s OStop) = [] /\ forall t, In t (rs_open s) -> In t (rs_told (rs_step s OStop)).
Proof. exact stop_ends_every_tracked_tunnel. Qed.
Print Assumptions C04_stop_ends_every_tracked_tunnel.

(* ---- one RPC end to end (Rpc.v) when the tunnel ends at the calling end (Close, the tunnel's context,
   a failure of the carrier), in every interleaving ---- *)
From GT Require Import RpcProofs RpcEnd.
(* RPCs started on that tunnel afterwards fail immediately instead of hanging: nothing is sent, no stream *)
Theorem C04_rpc_started_after_the_end_fails_at_once : forall strict ls s,
  rrun strict r_init ls = Some s -> k_chend (r_k s) = true -> k_new (r_k s) = false ->
  exists s', rstep strict s (LK CNew) = Some s' /\ k_new (r_k s') = false /\ h_c s' = h_c s /\ q_c s' = q_c s.
Proof. exact rpc_started_after_the_end_fails_at_once. Qed.
Print Assumptions C04_rpc_started_after_the_end_fails_at_once.
(* every in-flight call is released: its table entry is gone, its context cancelled, and its terminal result is
   reached by steps of the client's own goroutines *)
Theorem C04_rpc_in_flight_call_is_released : forall strict ls s,
  rrun strict r_init ls = Some s -> k_chend (r_k s) = true -> k_new (r_k s) = true -> k_sig (r_k s) = false ->
  k_tab (r_k s) = false /\ exists l, In l [CWatch; CRemove; CPublish] /\ exists s', rstep strict s (LK l) = Some s'.
Proof. exact rpc_in_flight_call_is_released. Qed.
Print Assumptions C04_rpc_in_flight_call_is_released.
(* ... and that result is non-OK: an unfinished call can no longer be finished by the peer's close *)
Theorem C04_rpc_unfinished_call_cannot_succeed_after_the_end : forall strict s l s',
  kinv (r_k s) = true -> k_chend (r_k s) = true -> k_done (r_k s) = None -> rstep strict s l = Some s' ->
  k_done (r_k s') = None \/ k_done (r_k s') = Some ByCtx \/ k_done (r_k s') = Some ByReader.
Proof. exact rpc_unfinished_call_cannot_succeed_after_the_end. Qed.
Print Assumptions C04_rpc_unfinished_call_cannot_succeed_after_the_end.
