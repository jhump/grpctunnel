(* C06 — windows respected by senders, enforced by receivers. *)
From Coq Require Import List NArith.
From GT Require Import SenderAtomic SenderAtomicProofs Recvq RecvqProofs Frames FramesProofs ParamsFacts.
From GTgen Require Import Params.
Import ListNotations.
Local Open Scope N_scope.

(* sender, every interleaving with a conforming peer: un-credited bytes never exceed the
   window; every chunk handed to the wire is at most cmax *)
Theorem C06_sender_respects_window : forall cmax, 0 < cmax -> forall w0 msg ls s, w0 < M32 ->
  run_conf cmax (sa_init w0 msg) ls = Some s ->
  emitted s - credits s <= w0 /\ emitted s - credits s + win s + reserved s = w0 /\
  Forall (fun cf => fst cf <= cmax) (out s).
Proof. exact window_respected. Qed.
Print Assumptions C06_sender_respects_window.

Theorem C06_frames_at_most_chunk_max : forall (A : Type) cmax (m : list A) cs, legal cmax cs m ->
  Forall (fun f => dsize f <= N.of_nat cmax) (frames_of m cs).
Proof. exact frames_bounded. Qed.
Print Assumptions C06_frames_at_most_chunk_max.

(* receiver, every history with arbitrary (hostile) frame sizes: never more than the window
   is buffered; an overrun is refused with the state unchanged *)
Theorem C06_receiver_bounded : forall (T : Type) (measure : T -> N) W (ops : list (rq_op T)),
  let q := fold_left (rq_apply measure) ops (rq_init T W) in
  RecvqProofs.Inv measure W q /\ rq_queued measure q <= W.
Proof. exact bounded_always. Qed.
Print Assumptions C06_receiver_bounded.

Theorem C06_overrun_refused : forall (T : Type) (measure : T -> N) (q q' : rq T) x,
  rq_accept measure q x = (q', AccOverrun) -> q' = q /\ rq_win q < measure x /\ rq_closed q = false.
Proof. exact overrun_unchanged. Qed.
Print Assumptions C06_overrun_refused.

(* credit ledger, every history: credit never exceeds accepted data, un-credited data never
   exceeds the window, window = advertised - un-credited *)
Theorem C06_ledger : forall (T : Type) (measure : T -> N) W (ops : list (rq_op T)),
  let '(q, acc, cred) := fold_left (ledger_step measure) ops (rq_init T W, 0, 0) in
  cred <= acc /\ acc - cred <= W /\ rq_win q = W - (acc - cred).
Proof. exact ledger_always. Qed.
Print Assumptions C06_ledger.

Theorem C06_constants : chunk_max = 16384 /\ init_window = 65536.
Proof. exact (conj chunk_max_is_16KiB init_window_is_64KiB). Qed.
Print Assumptions C06_constants.

(* system level, all interleavings: the receiver is never overrun by a conforming sender, never
   buffers more than its window, credit is conserved, every frame is at most cmax bytes *)
From GT Require Import Pipe PipeProofs.
Theorem C06_system_window_discipline : forall (A : Type) cmax W ls (s : pst A),
  prun cmax (p_init A W) ls = Some s ->
  p_overrun s = false /\ (bytes (p_rq s) <= W)%nat /\ (p_swin s <= W)%nat /\
  (p_swin s + bytes (p_wire s) + bytes (p_rq s) + PipeProofs.sum (p_credits s) = W)%nat /\
  Forall (fun f => (flen f <= cmax)%nat) (p_sent s).
Proof. exact system_window_discipline. Qed.
Print Assumptions C06_system_window_discipline.

(* nested tunnels: both levels keep their window discipline under every interleaving *)
From GT Require Import Nested NestedProofs.
Theorem C06_nested_window_discipline : forall (A B : Type) (enc : dframe A -> list B) (dec : list B -> option (dframe A)),
  (forall f, dec (enc f) = Some f) ->
  forall cmaxI WI cmaxO WO ls (n : nst A B), nrun enc dec cmaxI cmaxO (n_init A B WI WO) ls = Some n ->
  p_overrun (n_in n) = false /\ (bytes (p_rq (n_in n)) <= WI)%nat /\
  (p_swin (n_in n) + bytes (n_fl n) + bytes (p_rq (n_in n)) + PipeProofs.sum (p_credits (n_in n)) = WI)%nat /\
  p_overrun (n_out n) = false /\ (bytes (p_rq (n_out n)) <= WO)%nat.
Proof. exact nested_window_discipline. Qed.
Print Assumptions C06_nested_window_discipline.

(* code shape, regenerated from the source on every run (see theories/SkelReceiver.v) *)
From Coq Require Import String.
From GT Require Import SkelReceiver.

Local Open Scope string_scope.
Theorem C06_receiver_accept_shape : skel_defaultReceiver_accept =
  ["call measure"; "call mu.Lock"; "defer call mu.Unlock"; "set currentWindow"; "call items.Len"; "call items.PushBack"; "call cond.Signal"].
Proof. exact defaultReceiver_accept_shape. Qed.
Print Assumptions C06_receiver_accept_shape.

(* which expression sizes each window in the source (see theories/SkelWindows.v) *)
From GT Require Import SkelWindows.
Theorem C06_windows_as_advertised : window_args =
  [("server.sender", "frame.InitialWindowSize"); ("server.receiver", "initialWindowSize");
   ("client.sender", "settings.InitialWindowSize"); ("client.receiver", "initialWindowSize")].
Proof. exact windows_as_advertised. Qed.
Print Assumptions C06_windows_as_advertised.
