(* C14 — finished RPCs and finished tunnels leave nothing behind. *)
From Coq Require Import List.
From GT Require Import Tables TablesProofs Waits WaitsProofs.

(* finishing removes the table entry and nothing else *)
Theorem C14_server_entry_removed : forall s id y, In y (s_active (st_remove s id)) <-> In y (s_active s) /\ y <> id.
Proof. intros s id y. exact (zremove_In id y (s_active s)). Qed.
Print Assumptions C14_server_entry_removed.

Theorem C14_client_entry_removed : forall c id y, In y (c_active (ct_remove c id)) <-> In y (c_active c) /\ y <> id.
Proof. intros c id y. exact (zremove_In id y (c_active c)). Qed.
Print Assumptions C14_client_entry_removed.

(* the per-stream goroutines (context watcher, blocked reader / sender / Header caller) can all
   leave once the stream's context has ended, and the internal activity terminates *)
Theorem C14_goroutines_can_exit : forall client ls s,
  wrun client st0 ls = Some s -> ctx_done s = true -> internal_enabled client s = false -> all_exits s = true.
Proof. exact nothing_hangs_after_context_end. Qed.
Print Assumptions C14_goroutines_can_exit.

Theorem C14_activity_terminates : forall client ls s l s',
  wrun client st0 ls = Some s -> (l = WatcherStep \/ l = FinishStep) -> wstep client s l = Some s' ->
  wmeasure s' < wmeasure s.
Proof. exact internal_activity_terminates. Qed.
Print Assumptions C14_activity_terminates.

(* ---- one RPC end to end (Rpc.v), every interleaving: finished means removed from both tables ---- *)
From GT Require Import RpcProofs RpcSystem.
Theorem C14_rpc_tables_clean : forall strict ls s, rrun strict r_init ls = Some s ->
  (k_done (r_k s) <> None -> c_quiet (r_k s) = true -> k_tab (r_k s) = false) /\
  (v_h (r_v s) = HRet -> v_hf (r_v s) = S0 -> v_tab (r_v s) = false) /\
  (v_h (r_v s) = HRej \/ v_h (r_v s) = HNone -> v_tab (r_v s) = false) /\
  (v_closed (r_v s) = true -> v_tab (r_v s) = false).
Proof. exact rpc_tables_clean. Qed.
Print Assumptions C14_rpc_tables_clean.
(* the goroutines spawned for a stream (finishers, the close / refusal goroutine, a pending window
   update) run out of work: each of their steps strictly decreases a measure *)
From GT Require Import RpcProgress.
Theorem C14_rpc_server_internal_steps_terminate : forall strict v l v' em,
  vinv0 strict v = true -> In l v_internal -> vstep strict v l = Some (v', em) -> v_measure v' < v_measure v.
Proof. exact rpc_server_internal_steps_terminate. Qed.
Print Assumptions C14_rpc_server_internal_steps_terminate.
From GT Require Import MultiRpc MultiRpcProofs.
Theorem C14_multi_tables_clean : forall strict n ls m i,
  mrun strict (m_init n) ls = Some m -> i < n ->
  (k_done (p_k (get m i)) <> None -> c_quiet (p_k (get m i)) = true -> k_tab (p_k (get m i)) = false) /\
  (v_closed (p_v (get m i)) = true -> v_tab (p_v (get m i)) = false).
Proof. exact multi_tables_clean. Qed.
Print Assumptions C14_multi_tables_clean.
