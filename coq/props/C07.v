(* C07 — cancelling or timing out one RPC ends exactly that RPC on both ends. *)
From Coq Require Import List ZArith.
From GT Require Import CliFinish CliFinishProofs Waits WaitsProofs Tables TablesProofs.
Import ListNotations.

(* the race between cancellation and normal completion has exactly one winner, and what the
   caller observes - outcome and trailers - is entirely the winner's: never a mixture *)
Theorem C07_one_outcome_no_mixture : forall ls s, cf_run false cf_init ls = Some s -> read_ok s = true.
Proof. exact terminal_result_and_trailers_agree. Qed.
Print Assumptions C07_one_outcome_no_mixture.

Theorem C07_first_writer_wins : forall ls s w, cf_done s = Some w ->
  forall s', cf_run false s ls = Some s' -> cf_done s' = Some w.
Proof. exact first_writer_wins. Qed.
Print Assumptions C07_first_writer_wins.

(* once the context has ended, blocked reads, writes and Header() of that RPC can all return *)
Theorem C07_blocked_calls_released : forall client ls s,
  wrun client st0 ls = Some s -> ctx_done s = true -> internal_enabled client s = false -> all_exits s = true.
Proof. exact nothing_hangs_after_context_end. Qed.
Print Assumptions C07_blocked_calls_released.

(* frames that arrive for an RPC the endpoint has finished with are discarded *)
Theorem C07_late_frames_ignored : forall s id, In id (s_active s) -> (id <= s_last s)%Z ->
  st_get (st_remove s id) id = GIgnore.
Proof. exact finished_id_is_ignored. Qed.
Print Assumptions C07_late_frames_ignored.

(* ... and the tunnel stays up whatever the order of cancel / close / data / window frames *)
Theorem C07_tunnel_survives : forall ls t, trun tun0 ls = Some t -> t_err t = false.
Proof. exact no_rpc_event_kills_the_tunnel. Qed.
Print Assumptions C07_tunnel_survives.

(* code shape, regenerated from the source on every run (see theories/SkelFinish.v) *)
From Coq Require Import String.
From GT Require Import SkelFinish.
From GTgen Require Import Params.
Local Open Scope string_scope.
Theorem C07_client_finish_shape : skel_tunnelClientStream_finishStream =
  ["call done.CompareAndSwap"; "defer call cancel"; "call ch.removeStream"; "defer call receiver.close"; "call metaMu.Lock"; "defer call metaMu.Unlock"; "set trailers"; "set gotHeaders"; "close gotHeadersSignal"; "close doneSignal"].
Proof. exact tunnelClientStream_finishStream_shape. Qed.
Print Assumptions C07_client_finish_shape.
Theorem C07_client_cancel_shape : skel_tunnelClientStream_cancelStream =
  ["call finishStream"; "call receiver.cancel"; "go func"].
Proof. exact tunnelClientStream_cancelStream_shape. Qed.
Print Assumptions C07_client_cancel_shape.
Theorem C07_server_finish_shape : skel_tunnelServerStream_finishStream =
  ["call finishErr.CompareAndSwap"; "call finishErr.Load"; "call cancel"; "call svr.removeStream"; "call halfClose"; "call writeMu.Lock"; "defer call writeMu.Unlock"; "set sentHeaders"; "set headers"; "go func"; "set sentHeaders"; "set headers"; "set closed"; "set trailers"].
Proof. exact tunnelServerStream_finishStream_shape. Qed.
Print Assumptions C07_server_finish_shape.

(* ---- one RPC end to end (Rpc.v), every interleaving of cancellation, completion and late frames ---- *)
From GT Require Import RpcProofs RpcSystem.
Theorem C07_rpc_outcome_write_once : forall strict ls s s', rrun strict s ls = Some s' ->
  (forall c, k_done (r_k s) = Some c -> k_done (r_k s') = Some c) /\
  (forall c, v_fin (r_v s) = Some c -> v_fin (r_v s') = Some c).
Proof. exact rpc_outcome_write_once. Qed.
Print Assumptions C07_rpc_outcome_write_once.
(* frames that arrive for the finished RPC are discarded: neither loop ever ends the tunnel *)
Theorem C07_rpc_late_frames_harmless : forall strict ls s, rrun strict r_init ls = Some s ->
  k_err (r_k s) = false /\ v_err (r_v s) = false.
Proof. exact rpc_tunnel_survives. Qed.
Print Assumptions C07_rpc_late_frames_harmless.
(* the cancel frame is sent at most once, and only by a cancelStream that won *)
Theorem C07_rpc_cancel_frame_once : forall strict ls s, rrun strict r_init ls = Some s -> gc_run (h_c s) <> GcBad.
Proof. exact rpc_client_frames_conform. Qed.
Print Assumptions C07_rpc_cancel_frame_once.
(* ends that RPC at the caller without waiting for the peer: once the context has ended and until the
   caller has its terminal result, a step of the client's own goroutines is enabled (no frame delivery,
   no server step), and that internal activity terminates *)
From GT Require Import RpcProgress.
Theorem C07_rpc_cancel_never_waits_for_the_peer : forall strict ls s, rrun strict r_init ls = Some s ->
  k_new (r_k s) = true -> k_ctx (r_k s) = true -> k_sig (r_k s) = false ->
  exists l, In l [CWatch; CRemove; CPublish] /\ exists s', rstep strict s (LK l) = Some s'.
Proof. exact rpc_cancel_never_waits_for_the_peer. Qed.
Print Assumptions C07_rpc_cancel_never_waits_for_the_peer.
Theorem C07_rpc_client_internal_steps_terminate : forall k l k' em,
  kinv k = true -> In l k_internal -> kstep k l = Some (k', em) -> k_measure k' < k_measure k.
Proof. exact rpc_client_internal_steps_terminate. Qed.
Print Assumptions C07_rpc_client_internal_steps_terminate.
(* once the tunnel has delivered the notice, the handler's context is cancelled; and it is cancelled only
   when the stream has been finished *)
Theorem C07_rpc_cancel_notice_cancels_the_handler : forall strict v m v' em,
  vinv strict v = true -> v_tab v = true -> vstep strict v (SLoop FCancel m) = Some (v', em) -> v_ctx v' = true.
Proof. exact rpc_cancel_notice_cancels_the_handler. Qed.
Print Assumptions C07_rpc_cancel_notice_cancels_the_handler.
Theorem C07_rpc_handler_context_cancelled_iff_finished : forall strict ls s,
  rrun strict r_init ls = Some s -> (v_ctx (r_v s) = true <-> v_fin (r_v s) <> None).
Proof. exact rpc_handler_context_cancelled_iff_finished. Qed.
Print Assumptions C07_rpc_handler_context_cancelled_iff_finished.
