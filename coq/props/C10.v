(* C10 — graceful shutdown refuses new RPCs and lets in-flight ones finish. *)
From Coq Require Import List ZArith.
From GT Require Import Tables TablesProofs ParamsFacts.
Import ListNotations.

(* a new_stream arriving while closing is refused (first rejection code = Unavailable) and
   neither inserts an entry nor touches the existing ones *)
Theorem C10_refused_while_closing : forall s id rev m, (s_last s < id)%Z -> ~ In id (s_active s) ->
  st_create s id true rev m = (mkStab id (s_active s), CReject (nth 0 GTgen.Params.create_rejection_codes 0%N)).
Proof. exact closing_refuses. Qed.
Print Assumptions C10_refused_while_closing.

Theorem C10_code_is_unavailable : GTgen.Params.create_rejection_codes = [14; 14; 3; 12]%N.
Proof. exact rejection_codes. Qed.
Print Assumptions C10_code_is_unavailable.

(* the tunnel stays up for the RPCs in flight: refusals (the [closing_then] flag of new_stream
   labels is arbitrary) never produce a tunnel error under any interleaving *)
Theorem C10_tunnel_stays_up : forall ls t, trun tun0 ls = Some t -> t_err t = false.
Proof. exact no_rpc_event_kills_the_tunnel. Qed.
Print Assumptions C10_tunnel_stays_up.

(* the reverse-tunnel server's shutdown state machine, with the guards regenerated from the source:
   once GracefulStop or Stop has been called the server is closing for ever (whatever operations
   follow), and a Stop that was not preceded by a Stop ends every tunnel still tracked *)
From Coq Require Import String.
From GT Require Import RevServer.
From GTgen Require Import Params.
Local Open Scope string_scope.
Theorem C10_reverse_server_guards : 
  rs_states = ["stateActive"; "stateClosing"; "stateClosed"] /\
  rs_guards = [("isClosing", "state >= stateClosing"); ("isClosed", "state >= stateClosed");
               ("addInstance", "state >= stateClosing"); ("Stop", "state == stateClosed");
               ("GracefulStop", "state != stateActive")].
Proof. exact rs_shape. Qed.
Print Assumptions C10_reverse_server_guards.

Theorem C10_reverse_server_closing_forever : forall s o ops,
  (o = OStop \/ o = OGraceful) -> is_closing (rs_run (rs_step s o) ops) = true.
Proof. exact after_shutdown_always_closing. Qed.
Print Assumptions C10_reverse_server_closing_forever.

Theorem C10_stop_after_graceful_ends_tunnels : forall s, rs_state s <> Closed ->
  rs_open (rs_step s OStop) = [] /\ forall t, In t (rs_open s) -> In t (rs_told (rs_step s OStop)).
Proof. exact stop_ends_every_tracked_tunnel. Qed.
Print Assumptions C10_stop_after_graceful_ends_tunnels.
