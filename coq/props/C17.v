(* C17 — handlers and callers can identify the tunnel; accessor results are private copies. *)
From GT Require Import CtxCopy.

Theorem C17_accessor_returns_equal_copy : forall s c s' l, store_wf s -> get_tunnel_md s c = (s', Some l) ->
  exists l0, tmd_loc c = Some l0 /\ read s' l = read s l0 /\ l <> l0 /\ store_wf s'.
Proof. exact accessor_returns_equal_copy. Qed.
Print Assumptions C17_accessor_returns_equal_copy.

Theorem C17_mutation_is_private : forall s c s' l m', store_wf s -> get_tunnel_md s c = (s', Some l) ->
  forall k, k <> l -> read (write s' l m') k = read s' k.
Proof. exact mutation_is_private. Qed.
Print Assumptions C17_mutation_is_private.

Theorem C17_two_copies_independent : forall s c s1 l1 s2 l2 m', store_wf s ->
  get_tunnel_md s c = (s1, Some l1) -> get_tunnel_md s1 c = (s2, Some l2) ->
  l1 <> l2 /\ read (write s2 l1 m') l2 = read s2 l2.
Proof. exact two_copies_are_independent. Qed.
Print Assumptions C17_two_copies_independent.
