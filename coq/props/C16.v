(* C16 — unary and single-message call shapes are enforced on both ends. *)
From Coq Require Import List NArith.
From GT Require Import Frames Lookahead SrvStream SrvStreamProofs.
Import ListNotations.

(* a non-streaming reader yields a message only if the frames it received carry exactly one
   complete message; several never yield success; none yields end-of-stream *)
Theorem C16_ok_means_exactly_one : forall (A : Type) (fs : list (dframe A)) m,
  unary_read fs = UOk m -> delivered_of fs = [m].
Proof. exact unary_ok_exactly_one. Qed.
Print Assumptions C16_ok_means_exactly_one.

Theorem C16_two_messages_fail : forall (A : Type) (fs : list (dframe A)) m1 m2 rest,
  delivered_of fs = m1 :: m2 :: rest -> forall m, unary_read fs <> UOk m.
Proof. exact unary_two_fails. Qed.
Print Assumptions C16_two_messages_fail.

Theorem C16_no_message_is_eof : forall (A : Type) (fs : list (dframe A)),
  snd (rrun RIdle fs) = [] -> unary_read fs = UEof.
Proof. exact unary_none_is_eof. Qed.
Print Assumptions C16_no_message_is_eof.

(* an application's second send on a non-streaming side is refused and emits nothing *)
Theorem C16_second_send_refused : forall s tag, sw_nsent s = 1%N -> sw_sent_hdrs s = true -> sw_closed s = false ->
  sw_step false s (WSend tag) = (s, [], false).
Proof. exact second_send_refused. Qed.
Print Assumptions C16_second_send_refused.

(* the monitor that judges "several request messages were delivered" counts exactly the messages
   the model's reassembly completes on the same frames *)
From GT Require Import MonApp MonFacts.
Theorem C16_monitor_counts_like_the_model : forall (A : Type) (fs : list (dframe A)),
  count_complete (map (@size_image A) fs) = length (gots (snd (rrun RIdle fs))).
Proof. exact count_complete_is_reassembly. Qed.
Print Assumptions C16_monitor_counts_like_the_model.
