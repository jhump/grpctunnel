(* C12 — reverse-tunnel registry matches the open tunnels. *)
From Coq Require Import List Permutation.
From GT Require Import Registry RegistryProofs.
Import ListNotations.

Theorem C12_ready_iff_nonempty : forall ops : list rc_op,
  let c := fold_left rc_apply ops rc_new in
  avail_closed c = rc_ready c /\ (rc_ready c = true <-> rc_all c <> []).
Proof. exact latch_always. Qed.
Print Assumptions C12_ready_iff_nonempty.

Theorem C12_pick_is_member : forall c c' p, rc_pick c = (c', p) ->
  chans c' = chans c /\ match p with Some t => In t (rc_all c) | None => chans c = [] end.
Proof. exact pick_member. Qed.
Print Assumptions C12_pick_is_member.

(* any n consecutive picks over a stable set of n tunnels use each exactly once, from every
   cursor position *)
Theorem C12_round_robin : forall c, chans c <> [] ->
  Permutation (snd (rc_picks (length (chans c)) c)) (map Some (rc_all c)).
Proof. exact round_robin. Qed.
Print Assumptions C12_round_robin.

(* the two-level registry after every history of tunnels opening (any, colliding or nil keys),
   closing and RPC routing: AllReverseTunnels / AsChannel see exactly the open tunnels, and
   KeyAsChannel(k) exactly those whose key is k; Ready(k) iff that set is non-empty *)
Theorem C12_registry_matches_open_tunnels : forall ops, wf_history [] ops ->
  let r := fold_left reg_apply ops reg_new in
  let o := fold_left open_apply ops [] in
  rc_all (glob r) = map fst o /\
  forall k, reg_key_all r k = map fst (keyed k o) /\ (reg_key_ready r k = true <-> keyed k o <> []).
Proof. exact registry_matches_open_tunnels. Qed.
Print Assumptions C12_registry_matches_open_tunnels.

(* code shape, regenerated from the source on every run (see theories/SkelClose.v) *)
From Coq Require Import String.
From GT Require Import SkelClose.
From GTgen Require Import Params.
Local Open Scope string_scope.
Theorem C12_registry_add_shape : skel_reverseChannels_add =
  ["call mu.Lock"; "defer call mu.Unlock"; "set chans"; "close avail"].
Proof. exact reverseChannels_add_shape. Qed.
Print Assumptions C12_registry_add_shape.
Theorem C12_registry_remove_shape : skel_reverseChannels_remove =
  ["call mu.Lock"; "defer call mu.Unlock"; "set chans"; "set avail"].
Proof. exact reverseChannels_remove_shape. Qed.
Print Assumptions C12_registry_remove_shape.
