(* C03 — RPCs sharing a tunnel are independent. Safety core: with two conforming endpoints,
   whatever RPCs are started, refused (server shutting down, unsupported revision, malformed or
   unknown method), finished, cancelled or failed at either end, and in whatever order frames
   are emitted and processed, no receive loop ever reports a tunnel-level error. *)
From Coq Require Import List ZArith.
From GT Require Import Tables TablesProofs Recvq RecvqProofs.
Import ListNotations.

Theorem C03_no_rpc_event_kills_the_tunnel : forall ls t, trun tun0 ls = Some t -> t_err t = false.
Proof. exact no_rpc_event_kills_the_tunnel. Qed.
Print Assumptions C03_no_rpc_event_kills_the_tunnel.

(* a refused RPC's id is recorded, so the frames its caller already sent are ignored *)
Theorem C03_refused_id_is_recorded : forall s id rev m, (s_last s < id)%Z -> ~ In id (s_active s) ->
  st_create s id true rev m = (mkStab id (s_active s), CReject (nth 0 GTgen.Params.create_rejection_codes 0%N)).
Proof. exact closing_refuses. Qed.
Print Assumptions C03_refused_id_is_recorded.

Theorem C03_recorded_id_never_kills : forall s id cl rev m,
  snd (st_create s id cl rev m) <> CTunnelErr -> forall s', (s_last s' >= id)%Z -> st_get s' id <> GTunnelErr.
Proof. exact recorded_id_never_kills. Qed.
Print Assumptions C03_recorded_id_never_kills.

(* no head-of-line blocking with flow control: the receive loop's hand-off never blocks - accept
   either enqueues, drops (closed) or refuses (overrun), for every frame size *)
Theorem C03_accept_never_blocks : forall (T : Type) (measure : T -> N) (q : rq T) x,
  (rq_closed q = true /\ rq_accept measure q x = (q, AccDropped)) \/
  (rq_closed q = false /\ (rq_win q < measure x)%N /\ rq_accept measure q x = (q, AccOverrun)) \/
  (rq_closed q = false /\ (measure x <= rq_win q)%N /\
   rq_accept measure q x = (mkRq (rq_items q ++ [x]) (rq_win q - measure x) (rq_closed q) (rq_cancelled q), AccOk)).
Proof. exact accept_cases. Qed.
Print Assumptions C03_accept_never_blocks.

(* many streams on one carrier of bounded capacity (MultiPipe.v): the frame at the head of the
   carrier can always be taken by the receive loop, whatever the applications of the streams do -
   no stream's unread data holds up another stream's frames *)
From GT Require Import MultiPipe MultiPipeProofs.
Theorem C03_no_head_of_line_blocking : forall (A : Type) cmax W K, 0 < K ->
  forall n ls (m : mst A), mrun cmax K (m_init A W n) ls = Some m ->
  m_wire m <> [] -> exists m', mstep cmax K m MDeliver = Some m'.
Proof. exact multi_head_always_deliverable. Qed.
Print Assumptions C03_no_head_of_line_blocking.

(* ---- one RPC end to end (Rpc.v): no interleaving of its sends, half-close, cancellation, refusal,
   completion and late frames makes either receive loop end the tunnel ---- *)
From GT Require Import RpcProofs RpcSystem.
Theorem C03_rpc_never_ends_the_tunnel : forall strict ls s, rrun strict r_init ls = Some s ->
  k_err (r_k s) = false /\ v_err (r_v s) = false.
Proof. exact rpc_tunnel_survives. Qed.
Print Assumptions C03_rpc_never_ends_the_tunnel.

(* ---- many RPCs on one tunnel (MultiRpc.v): n instances of the per-RPC components on two shared
   queues; every stream of every run is a run of Rpc.v, so RPCs are independent at the control level ---- *)
From GT Require Import MultiRpc MultiRpcProofs.
Theorem C03_every_stream_runs_as_if_alone : forall strict n ls m i,
  mrun strict (m_init n) ls = Some m -> i < n -> exists ls', rrun strict r_init ls' = Some (proj_state i m).
Proof. exact multi_rpc_refines. Qed.
Print Assumptions C03_every_stream_runs_as_if_alone.
Theorem C03_no_rpc_of_many_ends_the_tunnel : forall strict n ls m i,
  mrun strict (m_init n) ls = Some m -> i < n -> k_err (p_k (get m i)) = false /\ v_err (p_v (get m i)) = false.
Proof. exact multi_no_rpc_ends_the_tunnel. Qed.
Print Assumptions C03_no_rpc_of_many_ends_the_tunnel.
