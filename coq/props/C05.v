(* C05 — flow control never strands a sender. *)
From Coq Require Import List NArith.
From GT Require Import SenderAtomic SenderAtomicProofs Recvq RecvqProofs ParamsFacts.
From GTgen Require Import Params.
Import ListNotations.
Local Open Scope N_scope.

(* atomic level, every interleaving of load / wait / CAS / emit with updateWindow's add and
   signal steps and with cancellation: a sender parked in the wait while its window is
   positive and no update is in progress can always take the wake-up token *)
Theorem C05_no_lost_wakeup : forall cmax, 0 < cmax -> forall w0 msg ls s, w0 < M32 ->
  run cmax (sa_init w0 msg) ls = Some s ->
  sp s = SWait -> 0 < win s -> up s = UIdle -> exists s', step cmax s LWaitTok = Some s'.
Proof. exact never_stranded. Qed.
Print Assumptions C05_no_lost_wakeup.

Theorem C05_woken_sender_proceeds : forall cmax, 0 < cmax -> forall s s1, step cmax s LWaitTok = Some s1 -> 0 < win s ->
  exists s2, step cmax s1 LLoad = Some s2 /\ sp s2 = SCas (win s).
Proof. exact woken_sender_progresses. Qed.
Print Assumptions C05_woken_sender_proceeds.

Theorem C05_cancel_releases : forall cmax s, sp s = SWait -> cancelled s = true ->
  exists s', step cmax s LWaitCtx = Some s'.
Proof. exact cancel_releases. Qed.
Print Assumptions C05_cancel_releases.

(* no credit leak on the sender: once everything emitted has been credited, the whole window
   is available again *)
Theorem C05_sender_window_restored : forall cmax, 0 < cmax -> forall w0 msg ls s, w0 < M32 ->
  run_conf cmax (sa_init w0 msg) ls = Some s -> credits s = emitted s -> reserved s = 0 -> win s = w0.
Proof. exact window_restored. Qed.
Print Assumptions C05_sender_window_restored.

(* receiver: credit returned is exactly what the application dequeued; without cancellation
   queued + window = advertised window, so an empty queue means a full window *)
Theorem C05_credit_exact : forall (T : Type) (measure : T -> N) (q q' : rq T) x c,
  rq_dequeue measure q = (q', DeqItem x c) ->
  c = measure x /\ rq_items q = x :: rq_items q' /\ rq_win q' = rq_win q + c /\ rq_cancelled q = false.
Proof. exact dequeue_item. Qed.
Print Assumptions C05_credit_exact.

Theorem C05_receiver_window_exact : forall (T : Type) (measure : T -> N) W (ops : list (rq_op T)),
  forallb (@no_cancel T) ops = true ->
  let q := fold_left (rq_apply measure) ops (rq_init T W) in
  rq_queued measure q + rq_win q = W /\ (rq_items q = [] -> rq_win q = W).
Proof. exact window_exact. Qed.
Print Assumptions C05_receiver_window_exact.

(* the window the code uses is the one the property names, and it fits the uint32 arithmetic *)
Theorem C05_window_constant : init_window = 65536 /\ init_window < M32.
Proof. exact (conj init_window_is_64KiB window_fits_uint32). Qed.
Print Assumptions C05_window_constant.

(* system level, all interleavings of sends, reads, frame delivery and credit delivery *)
From GT Require Import Pipe PipeProofs.
Theorem C05_system_blocked_only_by_full_unread_window : forall (A : Type) cmax W ls (s : pst A),
  prun cmax (p_init A W) ls = Some s -> p_cur s <> None -> Pipe.internal_enabled cmax s = false -> bytes (p_rq s) = W :> nat.
Proof. exact system_blocked_means_full_window_unread. Qed.
Print Assumptions C05_system_blocked_only_by_full_unread_window.

Theorem C05_system_window_restored : forall (A : Type) cmax W ls (s : pst A),
  prun cmax (p_init A W) ls = Some s -> p_wire s = [] -> p_rq s = [] -> p_credits s = [] -> p_swin s = W.
Proof. exact system_window_restored. Qed.
Print Assumptions C05_system_window_restored.

(* nested tunnels: once everything has been read and credited the inner sender has its whole window *)
From GT Require Import Frames Nested NestedProofs.
Theorem C05_nested_window_restored : forall (A B : Type) (enc : dframe A -> list B) (dec : list B -> option (dframe A)),
  (forall f, dec (enc f) = Some f) ->
  forall cmaxI WI cmaxO WO ls (n : nst A B), nrun enc dec cmaxI cmaxO (n_init A B WI WO) ls = Some n ->
  n_fl n = [] -> p_rq (n_in n) = [] -> p_credits (n_in n) = [] -> p_swin (n_in n) = WI.
Proof. exact nested_window_restored. Qed.
Print Assumptions C05_nested_window_restored.

(* code shape, regenerated from the source on every run (see theories/SkelSender.v) *)
From Coq Require Import String.
From GT Require Import SkelSender.

Local Open Scope string_scope.
Theorem C05_sender_send_shape : skel_defaultSender_send =
  ["call mu.Lock"; "defer call mu.Unlock"; "call currentWindow.Load"; "select"; "recv windowUpdates"; "recv ctx.Done()"; "call ctx.Err"; "end"; "call currentWindow.CompareAndSwap"; "call sendFunc"].
Proof. exact defaultSender_send_shape. Qed.
Print Assumptions C05_sender_send_shape.
Theorem C05_sender_update_shape : skel_defaultSender_updateWindow =
  ["call currentWindow.Add"; "select"; "trysend windowUpdates"; "end"].
Proof. exact defaultSender_updateWindow_shape. Qed.
Print Assumptions C05_sender_update_shape.

(* stalled streams and a bounded transport buffer cannot deadlock a tunnel: whenever a sender of
   any stream still has something to send, some internal step of the tunnel is enabled, or that
   stream's own receiving application sits on a full window of unread data *)
From GT Require Import MultiPipe MultiPipeProofs.
Theorem C05_bounded_carrier_no_deadlock : forall (A : Type) (cmax W K : nat), (0 < K)%nat ->
  forall n ls (m : mst A) i (s : pst A), mrun cmax K (m_init A W n) ls = Some m ->
  nth_error (m_streams m) i = Some s -> p_cur s <> None ->
  m_internal_enabled cmax K m = true \/ bytes (p_rq s) = W.
Proof. exact multi_no_deadlock. Qed.
Print Assumptions C05_bounded_carrier_no_deadlock.
