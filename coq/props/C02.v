(* C02 — status, headers, trailers and request metadata are delivered exactly.
   Server write side over every sequence of handler operations; client termination over every
   interleaving of the finishing goroutines with the reader.  The end-to-end equalities
   (status, headers, trailers, request metadata incl. per-RPC credentials) are the monitor
   mon_C02 (MonApp.v) evaluated on every implementation trace. *)
From Coq Require Import List.
From GT Require Import SrvStream SrvStreamProofs CliFinish CliFinishProofs.
Import ListNotations.

(* the headers frame carries exactly the headers set before it went out *)
Theorem C02_headers_exact : forall ss ops,
  match filter (fun f => match f with SHdrs _ => true | _ => false end) (snd (sw_run ss sw0 ops)) with
  | SHdrs md :: _ => md = wanted_headers [] ops
  | _ => True
  end.
Proof. exact headers_exact. Qed.
Print Assumptions C02_headers_exact.

(* the close frame carries exactly the trailers set before the stream finished *)
Theorem C02_trailers_exact : forall ss ops,
  match filter (fun f => match f with SClose _ _ => true | _ => false end) (snd (sw_run ss sw0 ops)) with
  | SClose _ md :: _ => md = wanted_trailers [] ops
  | _ => True
  end.
Proof. exact trailers_exact. Qed.
Print Assumptions C02_trailers_exact.

(* headers precede every response message; exactly-once framing of the outcome *)
Theorem C02_headers_before_messages : forall ss ops, g_run (snd (sw_run ss sw0 ops)) <> GBad.
Proof. exact emitted_grammar. Qed.
Print Assumptions C02_headers_before_messages.

(* the caller completes exactly once: the first recorded outcome stays *)
Theorem C02_completes_once : forall ls s w, cf_done s = Some w ->
  forall s', cf_run false s ls = Some s' -> cf_done s' = Some w.
Proof. exact first_writer_wins. Qed.
Print Assumptions C02_completes_once.

(* trailers are available as soon as the terminal result has been returned, under every
   interleaving of the finishing goroutines and the reader, and they belong to the outcome
   that was returned *)
Theorem C02_trailers_with_terminal_result : forall ls s, cf_run false cf_init ls = Some s -> read_ok s = true.
Proof. exact terminal_result_and_trailers_agree. Qed.
Print Assumptions C02_trailers_with_terminal_result.

(* regression witness: with the receiver closed before the trailers are stored (the order
   before the repair) the property fails *)
Theorem C02_close_first_refuted : exists ls s, cf_run true cf_init ls = Some s /\ read_ok s = false.
Proof. exact close_first_refuted. Qed.
Print Assumptions C02_close_first_refuted.

(* code shape, regenerated from the source on every run (see theories/SkelFinish.v) *)
From Coq Require Import String.
From GT Require Import SkelFinish.
From GTgen Require Import Params.
Local Open Scope string_scope.
Theorem C02_client_finish_shape : skel_tunnelClientStream_finishStream =
  ["call done.CompareAndSwap"; "defer call cancel"; "call ch.removeStream"; "defer call receiver.close"; "call metaMu.Lock"; "defer call metaMu.Unlock"; "set trailers"; "set gotHeaders"; "close gotHeadersSignal"; "close doneSignal"].
Proof. exact tunnelClientStream_finishStream_shape. Qed.
Print Assumptions C02_client_finish_shape.

(* ---- one RPC end to end (Rpc.v), every interleaving: headers are available no later than the first
   response message, and at the latest with the terminal result ---- *)
From GT Require Import RpcProofs RpcEnd.
Theorem C02_rpc_headers_no_later_than_first_message : forall strict ls s,
  rrun strict r_init ls = Some s ->
  (k_gotmsg (r_k s) = true -> k_hdrs (r_k s) = true) /\ (k_sig (r_k s) = true -> k_hdrs (r_k s) = true).
Proof. exact rpc_headers_no_later_than_first_message. Qed.
Print Assumptions C02_rpc_headers_no_later_than_first_message.
(* what the client's receive loop is handed for the stream is always a prefix of a conforming server history *)
Theorem C02_rpc_client_is_handed_conforming_frames : forall strict ls s,
  rrun strict r_init ls = Some s -> exists d, h_s s = (d ++ q_s s)%list /\ gs_run d <> GsBad.
Proof. exact rpc_client_is_handed_conforming_frames. Qed.
Print Assumptions C02_rpc_client_is_handed_conforming_frames.
