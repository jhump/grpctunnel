(* C13 — emitted frames conform to the documented protocol (framing part; the full grammar is
   the executable monitor mon_wire of MonWire.v, evaluated on every trace). *)
From Coq Require Import List NArith.
From GT Require Import Frames FramesProofs ParamsFacts.
From GTgen Require Import Params.
Import ListNotations.

(* one message = one envelope stating the total size, then continuations; a conforming reader
   reassembles exactly the message from it, for every legal chunking *)
Theorem C13_message_framing : forall (A : Type) cmax (m : list A) cs, legal cmax cs m ->
  rrun RIdle (frames_of m cs) = (RIdle, repeat Need (length cs - 1) ++ [Got m]).
Proof. exact reasm_roundtrip. Qed.
Print Assumptions C13_message_framing.

Theorem C13_chunks_at_most_16KiB : forall (A : Type) cmax (m : list A) cs, legal cmax cs m ->
  Forall (fun f => (dsize f <= N.of_nat cmax)%N) (frames_of m cs).
Proof. exact frames_bounded. Qed.
Print Assumptions C13_chunks_at_most_16KiB.

Theorem C13_nofc_sender_legal : forall (A : Type) cmax (m : list A), 0 < cmax -> legal cmax (chunks_nofc cmax m) m.
Proof. exact chunks_nofc_legal. Qed.
Print Assumptions C13_nofc_sender_legal.

Theorem C13_fc_sender_legal : forall (A : Type) cmax ws (m : list A), 0 < cmax ->
  Forall (fun w => 0 < w) ws ->
  list_sum (chunks_fc cmax ws (length m)) = length m -> chunks_fc cmax ws (length m) <> [] ->
  legal cmax (chunks_fc cmax ws (length m)) m.
Proof. exact chunks_fc_legal. Qed.
Print Assumptions C13_fc_sender_legal.

Theorem C13_constants : chunk_max = 16384%N /\ settings_stream_id = Zneg 1.
Proof. exact (conj chunk_max_is_16KiB settings_id_is_minus_one). Qed.
Print Assumptions C13_constants.

(* system level, all interleavings of sends, reads, frame and credit delivery: the data frames a
   sender has emitted always form a well-formed message stream (one envelope with the total size,
   continuations adding up to it, contiguous) *)
From GT Require Import Pipe PipeProofs.
Theorem C13_system_emitted_stream_wellformed : forall (A : Type) cmax W ls (s : pst A),
  prun cmax (p_init A W) ls = Some s ->
  fst (rrun RIdle (p_sent s)) <> RFailed /\ existsb (@is_bad A) (snd (rrun RIdle (p_sent s))) = false.
Proof. exact system_emitted_stream_wellformed. Qed.
Print Assumptions C13_system_emitted_stream_wellformed.

(* nested tunnels: what the inner receive loop reads from the outer stream is always one of the
   inner sender's frames, whole and in order: the read step is defined whenever the outer stream
   has something queued *)
From GT Require Import Nested NestedProofs.
Theorem C13_nested_carrier_hands_over_frames : forall (A B : Type) (enc : dframe A -> list B) (dec : list B -> option (dframe A)),
  (forall f, dec (enc f) = Some f) ->
  forall cmaxI WI cmaxO WO ls (n : nst A B), nrun enc dec cmaxI cmaxO (n_init A B WI WO) ls = Some n ->
  p_rq (n_out n) <> [] -> exists n', nstep enc dec cmaxI cmaxO n NCarrierRecv = Some n'.
Proof. exact nested_carrier_recv_enabled. Qed.
Print Assumptions C13_nested_carrier_hands_over_frames.

(* ---- one RPC end to end (Rpc.v): both endpoints' stream state machines, the goroutines they spawn,
   both receive loops and both carrier directions composed; every interleaving, runs of any length ---- *)
From GT Require Import RpcProofs RpcSystem.
(* what the tunnel client emits on a stream is accepted by the automaton of a conforming peer ... *)
Theorem C13_rpc_client_frames_conform : forall strict ls s, rrun strict r_init ls = Some s -> gc_run (h_c s) <> GcBad.
Proof. exact rpc_client_frames_conform. Qed.
Print Assumptions C13_rpc_client_frames_conform.
(* ... which means: new_stream first and only once, *)
Theorem C13_new_stream_first : forall h, gc_run h <> GcBad -> h = [] \/ exists r, h = FNew :: r /\ ~ In FNew r.
Proof. exact conforming_new_stream_first. Qed.
Print Assumptions C13_new_stream_first.
(* half-close at most once and no request data after it, *)
Theorem C13_no_request_data_after_half_close : forall h pre post,
  gc_run h <> GcBad -> h = pre ++ FHalf :: post -> ~ In FReq post /\ ~ In FHalf post.
Proof. exact conforming_no_data_after_half_close. Qed.
Print Assumptions C13_no_request_data_after_half_close.
(* cancel at most once *)
Theorem C13_cancel_at_most_once : forall h pre post, gc_run h <> GcBad -> h = pre ++ FCancel :: post -> ~ In FCancel post.
Proof. exact conforming_cancel_once. Qed.
Print Assumptions C13_cancel_at_most_once.
(* what the tunnel server emits on a stream: headers at most once and before any message, nothing but a
   late window update after the close, at most one close *)
Theorem C13_rpc_server_frames_conform : forall strict ls s, rrun strict r_init ls = Some s -> gs_run (h_s s) <> GsBad.
Proof. exact rpc_server_frames_conform. Qed.
Print Assumptions C13_rpc_server_frames_conform.
Theorem C13_rpc_at_most_one_close : forall strict ls s, rrun strict r_init ls = Some s -> count_close (h_s s) <= 1.
Proof. exact rpc_at_most_one_close. Qed.
Print Assumptions C13_rpc_at_most_one_close.
(* every stream a server accepts or rejects receives exactly one close frame: once the handler has
   returned (or the stream was refused) and the goroutines spawned for it have run *)
Theorem C13_rpc_exactly_one_close : forall strict ls s, rrun strict r_init ls = Some s ->
  (v_h (r_v s) = HRet \/ v_h (r_v s) = HRej) -> s_quiet (r_v s) = true -> count_close (h_s s) = 1.
Proof. exact rpc_exactly_one_close_when_settled. Qed.
Print Assumptions C13_rpc_exactly_one_close.
(* ... which is the last frame of a stream the handler ended (reads confined to the handler's goroutine) *)
Theorem C13_rpc_close_is_last : forall ls s pre post,
  rrun true r_init ls = Some s -> v_fin (r_v s) = Some SHandler -> h_s s = pre ++ FClose :: post -> post = [].
Proof. exact rpc_close_is_last_when_handler_ended. Qed.
Print Assumptions C13_rpc_close_is_last.
(* without that confinement it is not: the premise is needed *)
Theorem C13_rpc_close_is_last_needs_confinement :
  exists s, rrun false r_init wu_after_close_run = Some s /\ v_fin (r_v s) = Some SHandler /\ h_s s = [FHdr; FClose; FSwu].
Proof. exact rpc_close_is_last_needs_confinement. Qed.
Print Assumptions C13_rpc_close_is_last_needs_confinement.
(* ... and that close frame is always reachable: while it is not on the wire, one of the server's own
   goroutines has an enabled step towards it, and those steps terminate *)
From GT Require Import RpcProgress.
Theorem C13_rpc_close_frame_always_reachable : forall strict ls s, rrun strict r_init ls = Some s ->
  (v_h (r_v s) = HRet \/ v_h (r_v s) = HRej) -> count_close (h_s s) = 0 ->
  exists l, In l [SFinH; SCloseGo; SRejGo] /\ exists s', rstep strict s (LV l) = Some s'.
Proof. exact rpc_close_frame_always_reachable. Qed.
Print Assumptions C13_rpc_close_frame_always_reachable.
(* many RPCs on one tunnel: each stream's frames, picked out of the shared carrier by id, conform *)
From GT Require Import MultiRpc MultiRpcProofs.
Theorem C13_multi_streams_conform : forall strict n ls m i,
  mrun strict (m_init n) ls = Some m -> i < n ->
  gc_run (proj i (mh_c m)) <> GcBad /\ gs_run (proj i (mh_s m)) <> GsBad /\ count_close (proj i (mh_s m)) <= 1.
Proof. exact multi_streams_conform. Qed.
Print Assumptions C13_multi_streams_conform.

(* code shape behind the per-RPC model, regenerated from the source on every run (theories/SkelRpc.v) *)
From Coq Require Import String.
From GT Require Import SkelRpc.

Local Open Scope string_scope.
Theorem C13_client_SendMsg_refuses_after_half_close : gskel_tunnelClientStream_SendMsg =
  ["call writeMu.Lock"; "defer call writeMu.Unlock"; "if halfClosed"; "return"; "fi";
   "if !isClientStream && numSent == 1"; "return"; "fi"; "set numSent"; "return"; "return";
   "call sender.send"; "call loadDone"; "return"; "return"; "return"].
Proof. exact tunnelClientStream_SendMsg_shape. Qed.
Print Assumptions C13_client_SendMsg_refuses_after_half_close.
Theorem C13_client_CloseSend_shape : gskel_tunnelClientStream_CloseSend =
  ["call writeMu.Lock"; "defer call writeMu.Unlock"; "select"; "recv doneSignal"; "call loadDone"; "return"; "end";
   "if halfClosed"; "return"; "fi"; "set halfClosed"; "call stream.Send"; "return"].
Proof. exact tunnelClientStream_CloseSend_shape. Qed.
Print Assumptions C13_client_CloseSend_shape.
Theorem C13_server_SendMsg_shape : gskel_tunnelServerStream_SendMsg =
  ["call writeMu.Lock"; "defer call writeMu.Unlock"; "if closed"; "call ctx.Err"; "return"; "return"; "fi";
   "if !sentHeaders"; "call sendHeadersLocked"; "return"; "fi";
   "if !isServerStream && numSent == 1"; "return"; "fi"; "set numSent"; "return"; "return"; "call sender.send"; "return"].
Proof. exact tunnelServerStream_SendMsg_shape. Qed.
Print Assumptions C13_server_SendMsg_shape.
Theorem C13_server_setHeader_shape : gskel_tunnelServerStream_setHeader =
  ["call writeMu.Lock"; "defer call writeMu.Unlock"; "if sentHeaders"; "return"; "fi"; "set headers";
   "call sendHeadersLocked"; "return"; "return"].
Proof. exact tunnelServerStream_setHeader_shape. Qed.
Print Assumptions C13_server_setHeader_shape.
