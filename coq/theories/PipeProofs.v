(* System-level theorems for one stream direction (Pipe.v), for every interleaving of
   application sends and reads, frame delivery and credit delivery, every message sequence,
   every chunk limit and window:
     - what the reader has obtained is always a prefix of what was submitted, byte for byte,
       and it is everything once the pipeline has drained (C01);
     - the receiver is never overrun and never holds more than its window; the sender never
       has more than its window un-credited; every frame carries at most cmax bytes (C06);
     - credit is conserved exactly; a sender that is blocked in a state where nothing internal
       can move faces a full window of unread data at the peer, and once everything has been
       read and credited its whole window is back (C05);
     - what the sender has emitted so far never makes a conforming reader fail (C13). *)
From Coq Require Import List Arith Lia.
From GT Require Import Lts Frames FramesProofs Pipe.
Import ListNotations.
Set Implicit Arguments.

Fixpoint sum (l : list nat) : nat := match l with [] => 0 | x :: r => x + sum r end.
Lemma sum_app a b : sum (a ++ b) = sum a + sum b.
Proof. induction a; cbn; lia. Qed.

Section P.
Variable A : Type.
Variable cmax W : nat.
Notation pst := (pst A).
Notation pstep := (@pstep A cmax).
Notation prun := (@prun A cmax).
Notation p_init := (p_init A W).

Lemma bytes_app (a b : list (dframe A)) : bytes (a ++ b) = bytes a + bytes b.
Proof. unfold bytes. rewrite map_app. apply list_sum_app. Qed.
Lemma bytes_cons f (l : list (dframe A)) : bytes (f :: l) = flen f + bytes l.
Proof. reflexivity. Qed.
Lemma bytes_one (f : dframe A) : bytes [f] = flen f.
Proof. unfold bytes; cbn. apply Nat.add_0_r. Qed.

Lemma reader_snoc (fs : list (dframe A)) f :
  fst (rrun RIdle (fs ++ [f])) = fst (rstep (fst (rrun RIdle fs)) f) /\
  delivered_of (fs ++ [f]) = delivered_of fs ++ gots [snd (rstep (fst (rrun RIdle fs)) f)].
Proof.
  rewrite delivered_of_app, rrun_app. cbn [rrun fst]. now destruct (rstep (fst (rrun RIdle fs)) f).
Qed.

(* the sender as a fresh reader of everything emitted so far sees it: the completed messages have
   been delivered, and of the message in progress, [m = b ++ rest], exactly [b] is buffered (before
   the first chunk the reader is idle: an envelope is a continuation of the empty partial message) *)
Definition SInv (sent : list (dframe A)) (submitted : list (list A)) (cur : option (list A * list A * bool)) : Prop :=
  match cur with
  | None => submitted = delivered_of sent /\ fst (rrun RIdle sent) = RIdle
  | Some (m, rest, first) =>
      submitted = delivered_of sent ++ [m] /\
      exists b, m = b ++ rest /\ fst (rrun RIdle sent) = (if first then RIdle else RPart (lenN m) b) /\
                (first = true -> b = [])
  end.

Record PInv (s : pst) : Prop := {
  pi_fifo : p_sent s = p_consumed s ++ p_rq s ++ p_wire s;
  pi_reader : fst (rrun RIdle (p_consumed s)) = p_reader s /\ delivered_of (p_consumed s) = p_delivered s;
  pi_sender : SInv (p_sent s) (p_submitted s) (p_cur s);
  pi_ledger : p_swin s + bytes (p_wire s) + bytes (p_rq s) + sum (p_credits s) = W;
  pi_rwin : p_rwin s + bytes (p_rq s) = W;
  pi_noover : p_overrun s = false;
  pi_chunks : Forall (fun f => flen f <= cmax) (p_sent s)
}.

Lemma pinv_init : PInv p_init.
Proof. constructor; cbn; auto. lia. Qed.

Lemma chunk_sinv sent submitted m rest first c :
  SInv sent submitted (Some (m, rest, first)) -> c <= length rest ->
  let f := if first then Env (lenN m) (firstn c rest) else More (firstn c rest) in
  SInv (sent ++ [f]) submitted (if Nat.eqb c (length rest) then None else Some (m, skipn c rest, false)).
Proof.
  intros (Hsub & b & Hm & Hst & Hb) Hc f. unfold SInv. destruct (reader_snoc sent f) as [-> ->].
  assert (Hf : rstep (fst (rrun RIdle sent)) f = rstep (RPart (lenN m) b) (More (firstn c rest))).
  { rewrite Hst. destruct first; [rewrite (Hb eq_refl)|]; reflexivity. }
  rewrite Hf, (rstep_chunk _ _ Hm Hc). destruct (Nat.eqb c (length rest)); cbn [fst snd gots].
  - now rewrite Hsub.
  - rewrite app_nil_r. split; [exact Hsub|]. exists (b ++ firstn c rest).
    rewrite <- app_assoc, firstn_skipn. split; [exact Hm|]. split; [reflexivity|discriminate].
Qed.

Lemma pstep_inv s l s' : PInv s -> pstep s l = Some s' -> PInv s'.
Proof.
  intros [Hfifo Hreader Hsender Hledger Hrwin Hnoover Hchunks] H. destruct l; cbn [Pipe.pstep] in H.
  - (* PSubmit *) destruct (p_cur s); [discriminate|]. injection H as <-.
    constructor; simpl; try assumption.
    destruct Hsender as [-> Hst]. split; [reflexivity|]. exists []. auto.
  - (* PChunk *) destruct (p_cur s) as [[[m0 rest] first]|]; [|discriminate].
    destruct (Nat.eqb_spec (p_swin s) 0) as [|Hw]; [discriminate|].
    injection H as <-.
    set (c := Nat.min (p_swin s) (Nat.min (length rest) cmax)).
    set (f := if first then Env (lenN m0) (firstn c rest) else More (firstn c rest)).
    assert (Hfl : flen f = c) by (unfold f; destruct first; cbn [flen]; rewrite firstn_length; unfold c; lia).
    constructor; simpl; try assumption.
    + (* pi_fifo *) rewrite Hfifo, <- !app_assoc. reflexivity.
    + (* pi_sender *) apply (chunk_sinv Hsender). lia.
    + (* pi_ledger *) rewrite bytes_app, bytes_one, Hfl. lia.
    + (* pi_chunks *) apply Forall_app. split; [assumption|]. constructor; [|constructor]. lia.
  - (* PDeliver *) destruct (p_wire s) as [|f rest]; [discriminate|].
    rewrite bytes_cons in Hledger.
    (* ledger and rwin: flen f <= W - bytes rq = rwin *)
    destruct (Nat.ltb_spec (p_rwin s) (flen f)) as [Hlt|Hge]; [exfalso; lia|].
    injection H as <-.
    constructor; simpl; try assumption.
    + (* pi_fifo *) rewrite Hfifo, <- !app_assoc. reflexivity.
    + (* pi_ledger *) rewrite bytes_app, bytes_one. lia.
    + (* pi_rwin *) rewrite bytes_app, bytes_one. lia.
  - (* PDequeue *) destruct (p_rq s) as [|f rest]; [discriminate|].
    destruct (rstep (p_reader s) f) as [r' o] eqn:Es. injection H as <-.
    rewrite bytes_cons in *.
    constructor; simpl; try assumption.
    + (* pi_fifo *) rewrite Hfifo, <- !app_assoc. reflexivity.
    + (* pi_reader *) destruct Hreader as [Hr Hd], (reader_snoc (p_consumed s) f) as [-> ->]. rewrite Hr, Hd, Es. cbn [fst snd].
      split; [reflexivity|]. destruct o; rewrite ?app_nil_r; reflexivity.
    + (* pi_ledger *) destruct (Nat.eqb_spec (flen f) 0); [lia|]. rewrite sum_app. cbn [sum]. lia.
    + (* pi_rwin *) lia.
  - (* PCredit *) destruct (p_credits s) as [|n rest]; [discriminate|]. injection H as <-.
    cbn [sum] in Hledger.
    constructor; simpl; try assumption.
    lia.
Qed.

Lemma prun_runs : runs_of pstep prun.
Proof. split; reflexivity. Qed.
Lemma prun_inv ls s : prun p_init ls = Some s -> PInv s.
Proof. exact (run_inv _ _ prun_runs PInv pstep_inv ls p_init s pinv_init). Qed.
Lemma prun_step s l s' : reachable prun p_init s -> pstep s l = Some s' -> reachable prun p_init s'.
Proof. apply reachable_step, prun_runs. Qed.

(* The carrier is a queue, and nothing but the two ends looks at it.  MultiPipe.v and Nested.v keep
   the carrier outside the stream (its [p_wire] stays empty) and put the content back with their
   [set_wire], which is [rewire]. *)
Definition rewire (s : pst) (w : list (dframe A)) : pst :=
  mkP (p_submitted s) (p_cur s) (p_swin s) w (p_rq s) (p_rwin s) (p_reader s) (p_delivered s)
      (p_credits s) (p_overrun s) (p_sent s) (p_consumed s).

Lemma rewire_id (s : pst) : rewire s (p_wire s) = s.
Proof. now destruct s. Qed.

(* the messages a step takes from the sending application and hands to the reading one *)
Definition submits (l : plbl A) : list (list A) := match l with PSubmit m => [m] | _ => [] end.
Definition delivers (s : pst) (l : plbl A) : list (list A) :=
  match l, p_rq s with PDequeue, f :: _ => gots [snd (rstep (p_reader s) f)] | _, _ => [] end.

(* what a step does to the data on its way (windows and reassembly aside): every party moves it one
   stage on, from the application through [p_cur], carrier and queue to the reader *)
Lemma pstep_effect s l s' : pstep s l = Some s' ->
  match l with
  | PSubmit m => p_cur s = None /\ p_wire s' = p_wire s /\ p_rq s' = p_rq s
  | PChunk => p_cur s <> None /\ (exists f, p_wire s' = p_wire s ++ [f]) /\ p_rq s' = p_rq s
  | PDeliver => p_cur s' = p_cur s /\ exists f, p_wire s = f :: p_wire s' /\ (p_rq s' = p_rq s ++ [f] \/ p_rq s' = p_rq s)
  | PDequeue => p_cur s' = p_cur s /\ p_wire s' = p_wire s /\ exists f, p_rq s = f :: p_rq s'
  | PCredit => p_cur s' = p_cur s /\ p_wire s' = p_wire s /\ p_rq s' = p_rq s
  end /\
  p_submitted s' = p_submitted s ++ submits l /\ p_delivered s' = p_delivered s ++ delivers s l.
Proof.
  unfold delivers. destruct l; cbn [Pipe.pstep submits]; intro H.
  - (* PSubmit *) destruct (p_cur s); [discriminate|]. injection H as <-. cbn. now rewrite app_nil_r.
  - (* PChunk *) destruct (p_cur s) as [[[m rest] first]|]; [|discriminate].
    destruct (Nat.eqb (p_swin s) 0); [discriminate|]. injection H as <-. cbn. rewrite !app_nil_r.
    repeat split; eauto. discriminate.
  - (* PDeliver *) destruct (p_wire s) as [|f r]; [discriminate|].
    destruct (Nat.ltb (p_rwin s) (flen f)); injection H as <-; cbn; rewrite !app_nil_r; repeat split; eauto.
  - (* PDequeue *) destruct (p_rq s) as [|f r]; [discriminate|].
    destruct (rstep (p_reader s) f) as [r' o]. injection H as <-.
    cbn. rewrite app_nil_r. repeat split; eauto. now destruct o; rewrite ?app_nil_r.
  - (* PCredit *) destruct (p_credits s); [discriminate|]. injection H as <-. cbn. now rewrite !app_nil_r.
Qed.

(* a step that does not take from the carrier does not look at it: with [w] on the carrier it is the
   same step, and the frame it emits, if any, goes behind [w] *)
Lemma pstep_behind s l s' w : l <> PDeliver -> p_wire s = [] -> pstep s l = Some s' ->
  pstep (rewire s w) l = Some (rewire s' (w ++ p_wire s')) /\ (l <> PChunk -> p_wire s' = []).
Proof.
  intros Hl Hw H. destruct l; try congruence; cbn [Pipe.pstep rewire p_cur p_swin p_rq p_reader p_credits] in *.
  - (* PSubmit *) destruct (p_cur s); [discriminate|]. injection H as <-. cbn. now rewrite Hw, app_nil_r.
  - (* PChunk *) destruct (p_cur s) as [[[m rest] first]|]; [|discriminate].
    destruct (Nat.eqb (p_swin s) 0); [discriminate|]. injection H as <-. cbn. now rewrite Hw.
  - (* PDequeue *) destruct (p_rq s) as [|f r]; [discriminate|]. destruct (rstep (p_reader s) f).
    injection H as <-. cbn. now rewrite Hw, app_nil_r.
  - (* PCredit *) destruct (p_credits s); [discriminate|]. injection H as <-. cbn. now rewrite Hw, app_nil_r.
Qed.

(* the receive loop looks at the head of the carrier only *)
Lemma pstep_deliver_head s f s' : pstep (rewire s [f]) PDeliver = Some s' ->
  p_wire s' = [] /\ forall fl, pstep (rewire s (f :: fl)) PDeliver = Some (rewire s' fl).
Proof.
  cbn [Pipe.pstep rewire p_wire p_rwin]. destruct (Nat.ltb (p_rwin s) (flen f)); intros [= <-]; now split.
Qed.

Lemma pstep_none s l : pstep s l = None ->
  match l with
  | PSubmit _ => p_cur s <> None
  | PChunk => p_cur s = None \/ p_swin s = 0
  | PDeliver => p_wire s = []
  | PDequeue => p_rq s = []
  | PCredit => p_credits s = []
  end.
Proof.
  destruct l; cbn [Pipe.pstep].
  - (* PSubmit *) now destruct (p_cur s).
  - (* PChunk *) destruct (p_cur s) as [[[m rest] first]|]; [|now left].
    destruct (Nat.eqb_spec (p_swin s) 0); [now right|discriminate].
  - (* PDeliver *) destruct (p_wire s) as [|f r]; [reflexivity|]. now destruct (Nat.ltb (p_rwin s) (flen f)).
  - (* PDequeue *) destruct (p_rq s) as [|f r]; [reflexivity|]. now destruct (rstep (p_reader s) f).
  - (* PCredit *) now destruct (p_credits s).
Qed.

(* delivered is a prefix of completed, completed a prefix of submitted *)
Theorem system_delivered_prefix ls s : prun p_init ls = Some s -> prefix (p_delivered s) (p_submitted s).
Proof.
  intros I%prun_inv. rewrite <- (proj2 (pi_reader I)).
  assert (Hp : prefix (delivered_of (p_consumed s)) (delivered_of (p_sent s))).
  { apply delivered_of_mono. eexists. exact (pi_fifo I). }
  destruct Hp as [r Hr]. pose proof (pi_sender I) as Hs.
  destruct (p_cur s) as [[[m rest] first]|]; destruct Hs as [-> _]; rewrite Hr.
  - (* a message is being sent: submitted = completed ++ [m] *) exists (r ++ [m]). apply app_assoc_reverse.
  - exists r. reflexivity.
Qed.

Theorem system_complete_when_drained ls s : prun p_init ls = Some s ->
  p_cur s = None -> p_wire s = [] -> p_rq s = [] -> p_delivered s = p_submitted s.
Proof.
  intros I%prun_inv Hc Hw Hq. pose proof (pi_sender I) as Hs. rewrite Hc in Hs. destruct Hs as [-> _].
  rewrite <- (proj2 (pi_reader I)), (pi_fifo I), Hw, Hq, !app_nil_r. reflexivity.
Qed.

Theorem system_window_discipline ls s : prun p_init ls = Some s ->
  p_overrun s = false /\ bytes (p_rq s) <= W /\ p_swin s <= W /\
  p_swin s + bytes (p_wire s) + bytes (p_rq s) + sum (p_credits s) = W /\
  Forall (fun f => flen f <= cmax) (p_sent s).
Proof.
  intros I%prun_inv. pose proof (pi_noover I) as Hno.
  pose proof (pi_ledger I) as Hled. pose proof (pi_chunks I) as Hch.
  repeat split; [exact Hno|lia|lia|exact Hled|exact Hch].
Qed.

(* no stranding: if the sender is parked on its window and nothing internal can move, the
   receiving application is sitting on a full window of unread data; and once it has read
   everything and the credit has come back the whole window is available again *)
Theorem system_blocked_means_full_window_unread ls s : prun p_init ls = Some s ->
  p_cur s <> None -> internal_enabled cmax s = false -> bytes (p_rq s) = W.
Proof.
  intros I%prun_inv Hc Hq. pose proof (pi_ledger I) as Hl. unfold internal_enabled in Hq.
  destruct (pstep s PChunk) eqn:E1; [discriminate|]. apply pstep_none in E1 as [|Hz]; [contradiction|].
  destruct (pstep s PDeliver) eqn:E2; [discriminate|]. apply pstep_none in E2.
  destruct (pstep s PCredit) eqn:E3; [discriminate|]. apply pstep_none in E3.
  rewrite Hz, E2, E3 in Hl. unfold bytes in Hl |- *. cbn in Hl. lia.
Qed.

Theorem system_window_restored ls s : prun p_init ls = Some s ->
  p_wire s = [] -> p_rq s = [] -> p_credits s = [] -> p_swin s = W.
Proof.
  intros I%prun_inv Hw Hq Hcr. pose proof (pi_ledger I) as Hl. rewrite Hw, Hq, Hcr in Hl.
  unfold bytes in Hl. cbn in Hl. lia.
Qed.

Definition is_bad (o : rout A) : bool := match o with Bad _ => true | _ => false end.

Lemma rstep_bad_failed (st : rstate A) f st' o : rstep st f = (st', o) -> is_bad o = true -> st' = RFailed.
Proof.
  destruct st as [|sz b|], f as [sz' d|d]; cbn [rstep]; unfold fill; intros H Hb;
    repeat match type of H with context [if ?c then _ else _] => destruct c end;
    inversion H; subst; try reflexivity; discriminate.
Qed.

Lemma rrun_not_failed_no_bad (fs : list (dframe A)) : forall st,
  fst (rrun st fs) <> RFailed -> existsb is_bad (snd (rrun st fs)) = false.
Proof.
  induction fs as [|f fs IH]; intros st H; [reflexivity|].
  cbn [rrun] in *. destruct (rstep st f) as [st1 o] eqn:E.
  specialize (IH st1). destruct (rrun st1 fs) as [st2 os] eqn:E2. cbn [fst snd existsb] in *.
  rewrite (IH H). destruct (is_bad o) eqn:Eb; [|reflexivity].
  pose proof (rstep_bad_failed st f E Eb) as ->.
  pose proof (rrun_failed fs) as [Hf _]. rewrite E2 in Hf. cbn [fst] in Hf. congruence.
Qed.

(* C13 at system level: under every interleaving, what the sender has put on the wire so far is a
   well-formed message stream: a conforming reader never hits a framing violation on it *)
Theorem system_emitted_stream_wellformed ls s : prun p_init ls = Some s ->
  fst (rrun RIdle (p_sent s)) <> RFailed /\ existsb is_bad (snd (rrun RIdle (p_sent s))) = false.
Proof.
  intros I%prun_inv. pose proof (pi_sender I) as Hst.
  assert (Hnf : fst (rrun RIdle (p_sent s)) <> RFailed).
  { destruct (p_cur s) as [[[m rest] first]|]; [destruct Hst as (_ & b & _ & -> & _), first|destruct Hst as [_ ->]]; discriminate. }
  split; [exact Hnf | apply rrun_not_failed_no_bad; exact Hnf].
Qed.

End P.

Arguments pstep_behind {A cmax} [s l s'] w _ _ _.
Arguments pstep_effect {A cmax} [s l s'] _.
Arguments prun_step {A cmax W} [s l s'] _ _.

(* non-vacuity: a concrete run (chunk limit 2, window 3) in which the sender does get parked on
   its window with the peer holding a full window unread, and one that drains completely *)
Example blocked_state_is_reachable :
  exists s, prun 2 (p_init nat 3) [PSubmit [1; 2; 3; 4; 5]; PChunk; PChunk; PDeliver; PDeliver] = Some s /\
            p_cur s <> None /\ internal_enabled 2 s = false /\ bytes (p_rq s) = 3.
Proof. eexists. split; [vm_compute; reflexivity|]. repeat split; discriminate. Qed.

Example drained_run_delivers_everything :
  exists s, prun 2 (p_init nat 3)
    [PSubmit [1; 2; 3; 4; 5]; PChunk; PChunk; PDeliver; PDeliver; PDequeue; PDequeue; PCredit; PCredit;
     PChunk; PDeliver; PDequeue; PSubmit []; PChunk; PDeliver; PDequeue; PCredit] = Some s /\
    p_delivered s = [[1; 2; 3; 4; 5]; []] /\ p_swin s = 3.
Proof. eexists. split; [vm_compute; reflexivity|]. split; reflexivity. Qed.
