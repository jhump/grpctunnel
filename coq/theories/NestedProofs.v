(* Composition: a tunnel carried by a stream of another tunnel behaves, stream by stream, like a
   tunnel on a plain FIFO carrier.  Every run of the nested system (any interleaving of the inner
   and outer parties, any chunk limits and windows at either level, any framing with a decoder
   ([dec (enc f) = Some f]) of the inner frames as outer messages) maps to a run of the flat
   Pipe.v system, so every theorem of PipeProofs.v holds of the inner stream: exactly-once in-order
   delivery, the window discipline, no stranding. *)
From Coq Require Import List.
From GT Require Import Lts Frames FramesProofs Pipe PipeProofs Nested.
Import ListNotations.
Set Implicit Arguments.

Section N.
Variables A B : Type.
Variable enc : dframe A -> list B.
Variable dec : list B -> option (dframe A).
Hypothesis dec_enc : forall f, dec (enc f) = Some f.
Variables cmaxI WI cmaxO WO : nat.

Notation nst := (nst A B).
Notation nstep := (@nstep A B enc dec cmaxI cmaxO).
Notation nrun := (@nrun A B enc dec cmaxI cmaxO).
Notation n_init := (n_init A B WI WO).
Notation pstepI := (@pstep A cmaxI).
Notation pstepO := (@pstep B cmaxO).

(* [ni_out]: the outer stream is a state of Pipe.v; [ni_fl]: what it has accepted and not yet
   delivered are the inner frames in flight, encoded *)
Record NInv (n : nst) : Prop := {
  ni_wire : p_wire (n_in n) = [];
  ni_out : exists lsO, prun cmaxO (p_init B WO) lsO = Some (n_out n);
  ni_fl : p_submitted (n_out n) = p_delivered (n_out n) ++ map enc (n_fl n)
}.

Lemma ninv_init : NInv n_init.
Proof. constructor; [reflexivity | exists []; reflexivity | reflexivity]. Qed.

Lemma pstep_chunk_emits_one (s : pst A) s' :
  p_wire s = [] -> pstep cmaxI s PChunk = Some s' -> exists f, p_wire s' = [f].
Proof. intros Hw [(_ & [f Hf] & _) _]%pstep_effect. exists f. now rewrite Hf, Hw. Qed.

Lemma inner_step n l s' :
  NInv n -> pstepI (n_in n) l = Some s' -> l <> PChunk -> l <> PDeliver ->
  let n' := mkN s' (n_out n) (n_fl n) in NInv n' /\ pstepI (flat n) l = Some (flat n').
Proof.
  intros [Hw HO Hfl] E Hc Hd. destruct (pstep_behind (n_fl n) Hd Hw E) as [E' Hw']. specialize (Hw' Hc).
  rewrite Hw', app_nil_r in E'.
  split; [now constructor|exact E'].
Qed.

(* a step of the outer stream: [ni_fl] follows what the step adds to the outer stream's two histories *)
Lemma outer_step n l o' s' fl' :
  NInv n -> pstepO (n_out n) l = Some o' -> p_wire s' = [] ->
  map enc (n_fl n) ++ submits l = delivers (n_out n) l ++ map enc fl' ->
  NInv (mkN s' o' fl').
Proof.
  intros [_ HO Hfl] E Hw' H. constructor; cbn [n_in n_out n_fl]; [exact Hw'|exact (prun_step HO E)|].
  destruct (pstep_effect E) as (_ & -> & ->). now rewrite Hfl, <- !app_assoc, H.
Qed.

(* a message the outer stream completes is the oldest inner frame in flight *)
Lemma outer_got n fo rq o' m :
  NInv n -> p_rq (n_out n) = fo :: rq -> pstepO (n_out n) PDequeue = Some o' ->
  snd (rstep (p_reader (n_out n)) fo) = Got m -> exists f fl, n_fl n = f :: fl /\ m = enc f.
Proof.
  intros [_ HO Hfl] Hq E Hm. destruct (pstep_effect E) as (_ & Hs & Hd). cbn [submits] in Hs.
  unfold delivers in Hd. rewrite Hq, Hm in Hd.
  destruct (prun_step HO E) as [ls [rest Hpre]%system_delivered_prefix].
  rewrite Hs, Hd, Hfl, app_nil_r, <- app_assoc in Hpre. apply app_inv_head in Hpre.
  destruct (n_fl n) as [|f fl]; [discriminate|]. injection Hpre as <- _. now exists f, fl.
Qed.

Lemma nstep_refines n l n' :
  NInv n -> nstep n l = Some n' ->
  NInv n' /\ (flat n' = flat n \/ exists fl, pstep cmaxI (flat n) fl = Some (flat n')).
Proof.
  intros I H. pose proof (ni_wire I) as Hw. destruct l; cbn [Nested.nstep] in H.
  (* NSubmit, NDequeue, NCredit: an inner step away from the carrier is the same step of the flat stream *)
  1,7,8: destruct (pstepI (n_in n) _) as [s'|] eqn:E; [|discriminate]; injection H as <-;
         apply (inner_step I) in E as [I' E]; [|discriminate..]; split; [exact I'|right; eexists; exact E].
  (* NOuterChunk, NOuterDeliver, NOuterCredit: an internal step of the outer stream is invisible *)
  2-4: destruct (pstepO (n_out n) _) as [o'|] eqn:EO; [|discriminate]; injection H as <-;
       split; [exact (outer_step _ _ _ I EO Hw (app_nil_r _))|now left].
  - (* NChunk: the inner sender's frame goes into the outer stream as one message *)
    destruct (pstepI (n_in n) PChunk) as [s'|] eqn:E; [|discriminate].
    destruct (p_wire s') as [|f [|f2 r]] eqn:Ew; try discriminate.
    destruct (pstepO (n_out n) (PSubmit (enc f))) as [o'|] eqn:EO; [|discriminate]. injection H as <-. split.
    + refine (outer_step _ (set_wire s' []) _ I EO eq_refl _). now rewrite map_app.
    + right. exists PChunk. rewrite <- Ew. refine (proj1 (pstep_behind _ _ Hw E)). discriminate.
  - (* NCarrierRecv *)
    destruct (p_rq (n_out n)) as [|fo rq] eqn:Eq; [discriminate|].
    destruct (pstepO (n_out n) PDequeue) as [o'|] eqn:EO; [|discriminate].
    pose proof (outer_step _ _ (n_fl n) I EO Hw) as I'. unfold delivers in I'. rewrite Eq in I'.
    destruct (snd (rstep (p_reader (n_out n)) fo)) as [m| |e] eqn:Er.
    2,3: injection H as <-; split; [apply I', app_nil_r|now left].
    destruct (outer_got I Eq EO Er) as (f & fl & Efl & ->). rewrite dec_enc in H.
    destruct (pstepI (set_wire (n_in n) [f]) PDeliver) as [s1|] eqn:ED; [|discriminate]. injection H as <-.
    apply pstep_deliver_head in ED as [Hw1 EDf]. split.
    + refine (outer_step _ _ _ I EO Hw1 _). unfold delivers. rewrite Eq, Er, Efl. now rewrite app_nil_r.
    + right. exists PDeliver. unfold flat. rewrite Efl. apply EDf.
Qed.

Lemma nrun_runs : runs_of nstep nrun.
Proof. split; reflexivity. Qed.

Theorem nested_refines_flat ls : forall n, nrun n_init ls = Some n ->
  NInv n /\ exists fls, prun cmaxI (p_init A WI) fls = Some (flat n).
Proof.
  exact (fun n => run_refines nstep nrun pstepI (prun cmaxI) NInv (@flat A B) nrun_runs
                    (prun_runs A cmaxI) nstep_refines ls n_init n ninv_init).
Qed.

Theorem nested_delivered_prefix ls n : nrun n_init ls = Some n ->
  prefix (p_delivered (n_in n)) (p_submitted (n_in n)).
Proof.
  intros H. destruct (nested_refines_flat ls H) as [_ [fls Hf]].
  exact (system_delivered_prefix _ _ _ Hf).
Qed.

Theorem nested_complete_when_drained ls n : nrun n_init ls = Some n ->
  p_cur (n_in n) = None -> n_fl n = [] -> p_rq (n_in n) = [] ->
  p_delivered (n_in n) = p_submitted (n_in n).
Proof.
  intros H Hc Hf Hq. destruct (nested_refines_flat ls H) as [_ [fls Hr]].
  apply (system_complete_when_drained _ _ _ Hr); assumption.
Qed.

Theorem nested_window_discipline ls n : nrun n_init ls = Some n ->
  p_overrun (n_in n) = false /\ bytes (p_rq (n_in n)) <= WI /\
  p_swin (n_in n) + bytes (n_fl n) + bytes (p_rq (n_in n)) + sum (p_credits (n_in n)) = WI /\
  p_overrun (n_out n) = false /\ bytes (p_rq (n_out n)) <= WO.
Proof.
  intros H. destruct (nested_refines_flat ls H) as [[_ [lsO HO] _] [fls Hr]].
  destruct (system_window_discipline _ _ _ Hr) as (H1 & H2 & _ & H4 & _).
  destruct (system_window_discipline _ _ _ HO) as (H5 & H6 & _).
  repeat split; assumption.
Qed.

Theorem nested_window_restored ls n : nrun n_init ls = Some n ->
  n_fl n = [] -> p_rq (n_in n) = [] -> p_credits (n_in n) = [] -> p_swin (n_in n) = WI.
Proof.
  intros H Hf Hq Hc. destruct (nested_refines_flat ls H) as [_ [fls Hr]].
  apply (system_window_restored _ _ _ Hr); assumption.
Qed.

(* the inner receive loop is never handed something that is not one of the inner sender's frames:
   whenever the outer stream completes a message, the nested step is defined (decoding succeeds)
   unless the inner step itself is disabled - which PDeliver never is on a non-empty carrier *)
Theorem nested_carrier_recv_enabled ls n : nrun n_init ls = Some n ->
  p_rq (n_out n) <> [] -> exists n', nstep n NCarrierRecv = Some n'.
Proof.
  intros [I _]%nested_refines_flat Hq. cbn [Nested.nstep].
  destruct (p_rq (n_out n)) as [|fo rq] eqn:Eq; [congruence|].
  destruct (pstepO (n_out n) PDequeue) as [o'|] eqn:EO; [|apply pstep_none in EO; congruence].
  destruct (snd (rstep (p_reader (n_out n)) fo)) as [m| |e] eqn:Er; try (eexists; reflexivity).
  destruct (outer_got I Eq EO Er) as (f & fl & _ & ->). rewrite dec_enc.
  destruct (pstepI (set_wire (n_in n) [f]) PDeliver) eqn:ED; [now eexists|]. now apply pstep_none in ED.
Qed.

End N.

(* non-vacuity: a message travels through both levels (inner chunk limit 2, outer chunk limit 1,
   each inner frame framed as an outer message of two symbols) *)
Definition ex_enc (f : dframe nat) : list (dframe nat) := [f; f].
Definition ex_dec (m : list (dframe nat)) : option (dframe nat) := hd_error m.
Example nested_run_delivers :
  match nrun ex_enc ex_dec 2 1 (n_init nat (dframe nat) 8 8)
         [NSubmit [1;2;3]; NChunk; NOuterChunk; NOuterChunk; NChunk; NOuterDeliver; NOuterDeliver;
          NCarrierRecv; NCarrierRecv; NOuterChunk; NOuterChunk; NOuterDeliver; NOuterDeliver;
          NCarrierRecv; NCarrierRecv; NDequeue; NDequeue] with
  | Some n => p_delivered (n_in n) = [[1;2;3]] /\ n_fl n = []
  | None => False
  end.
Proof. vm_compute. split; reflexivity. Qed.
