(* Termination measures for the internal activity of the two components of Rpc.v (the goroutines an
   endpoint spawns and its finishers): every internal step strictly decreases them (RpcProgress.v).
   A finisher's stages weigh 6, 5, 4 and not 3, 2, 1 because its last step may start the close
   goroutine (up to +2), CPublish may start the cancel goroutine (+1), and the watcher's
   compare-and-swap may put it into finishStream (+6, paid for by the 8 the watcher gives up). *)
From Coq Require Import List.
From GT Require Import Rpc.
Import ListNotations.

Definition w_sstage (x : sstage) : nat := match x with S0 => 0 | SWr => 4 | SHalfSt => 5 | SRem => 6 end.

Definition w_cgo (x : cgo) : nat := match x with CGHdr => 2 | CGClose => 1 | _ => 0 end.

Definition v_measure (v : sv) : nat :=
  w_sstage (v_lf v) + w_sstage (v_hf v) + w_cgo (v_cg v) + (if v_rej_go v then 1 else 0) + (if v_wu v then 1 else 0).

Definition v_internal : list vlbl := [SFinL; SFinH; SCloseGo; SRejGo; SWuSend].

Definition w_cstage (x : cstage) : nat := match x with F0 => 0 | FWon => 6 | FRemoved => 4 | FPub => 0 end.

Definition k_measure (k : ck) : nat :=
  w_cstage (k_stage k) + (if k_watched k then 0 else 8) + (if k_cancel_go k then 1 else 0) + (if k_wu k then 1 else 0).

Definition k_internal : list klbl := [CWatch; CRemove; CPublish; CGoCancel; CWuSend].
