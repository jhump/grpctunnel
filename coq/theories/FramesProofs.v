(* Proofs about framing: every legal chunking reassembles to exactly the message;
   a sequence of messages is delivered exactly, in order; any prefix of the frame
   stream yields a prefix of the message sequence (nothing fabricated, merged,
   reordered or duplicated); both senders only produce legal chunkings. *)
From Coq Require Import List Arith NArith Lia.
From GT Require Import Frames.
Import ListNotations.
Set Implicit Arguments.

Lemma list_sum_cons c cs : list_sum (c :: cs) = c + list_sum cs.
Proof. reflexivity. Qed.

Definition prefix {T} (l1 l2 : list T) : Prop := exists r, l2 = l1 ++ r.

Lemma prefix_refl {T} (l : list T) : prefix l l.
Proof. exists []. now rewrite app_nil_r. Qed.

Lemma prefix_firstn {T} k (l : list T) : prefix (firstn k l) l.
Proof. exists (skipn k l). symmetry. apply firstn_skipn. Qed.

Section P.
Variable A : Type.
Notation dframe := (dframe A).
Notation rstate := (rstate A).
Notation rout := (rout A).

Lemma rrun_app (s : rstate) (a b : list dframe) :
  rrun s (a ++ b) =
  (fst (rrun (fst (rrun s a)) b), snd (rrun s a) ++ snd (rrun (fst (rrun s a)) b)).
Proof.
  revert s. induction a as [|f a IH]; intro s; cbn [app rrun fst snd].
  - now destruct (rrun s b).
  - destruct (rstep s f) as [s1 o]. rewrite IH. now destruct (rrun s1 a).
Qed.

Lemma gots_app (a b : list rout) : gots (a ++ b) = gots a ++ gots b.
Proof.
  induction a as [|o a IH]; [reflexivity|]. cbn [app gots]. destruct o; rewrite ?IH; reflexivity.
Qed.

Lemma delivered_of_app (a b : list dframe) :
  delivered_of (a ++ b) = delivered_of a ++ gots (snd (rrun (fst (rrun RIdle a)) b)).
Proof. unfold delivered_of. rewrite rrun_app. apply gots_app. Qed.

Lemma delivered_of_mono (a b : list dframe) : prefix a b -> prefix (delivered_of a) (delivered_of b).
Proof. intros [r ->]. rewrite delivered_of_app. now eexists. Qed.

Lemma gots_repeat_need n : gots (repeat (@Need A) n) = [].
Proof. induction n as [|n IH]; [reflexivity|exact IH]. Qed.

Lemma lenN_app (a b : list A) : lenN (a ++ b) = (lenN a + lenN b)%N.
Proof. unfold lenN. rewrite app_length. lia. Qed.

Lemma cut_cons c cs (m : list A) : cut (c :: cs) m = firstn c m :: cut cs (skipn c m).
Proof. reflexivity. Qed.

(* the reader holds [b] of the message [b ++ rest] and is given the next [c] bytes *)
Lemma rstep_chunk (m b rest : list A) c : m = b ++ rest -> c <= length rest ->
  rstep (RPart (lenN m) b) (More (firstn c rest)) =
  if Nat.eqb c (length rest) then (RIdle, Got m) else (RPart (lenN m) (b ++ firstn c rest), Need).
Proof.
  intros -> Hc. cbn [rstep]. unfold fill, lenN. rewrite !app_length, firstn_length, Nat.min_l by exact Hc.
  destruct (Nat.eqb_spec c (length rest)) as [->|Hne].
  - now rewrite firstn_all, N.ltb_irrefl, N.eqb_refl.
  - now rewrite (proj2 (N.ltb_ge _ _)), (proj2 (N.eqb_neq _ _)) by lia.
Qed.

Lemma rrun_more (m b : list A) c cs rest :
  m = b ++ rest -> Forall (fun c => 0 < c) cs -> c + list_sum cs = length rest ->
  rrun (RPart (lenN m) b) (map (@More A) (cut (c :: cs) rest)) = (RIdle, repeat Need (length cs) ++ [Got m]).
Proof.
  revert b c rest. induction cs as [|c' cs IH]; intros b c rest Hm Hpos Hsum; rewrite cut_cons; cbn [map rrun];
    rewrite (rstep_chunk _ _ Hm) by lia.
  - cbn in Hsum. replace c with (length rest) by lia. now rewrite Nat.eqb_refl.
  - apply Forall_cons_iff in Hpos as [Hc' Hpos]. rewrite list_sum_cons in Hsum.
    destruct (Nat.eqb_spec c (length rest)); [lia|].
    rewrite (IH _ c' (skipn c rest)); [reflexivity| |exact Hpos|].
    + now rewrite <- app_assoc, firstn_skipn.
    + rewrite skipn_length. lia.
Qed.

Theorem reasm_roundtrip cmax (m : list A) cs :
  legal cmax cs m ->
  rrun RIdle (frames_of m cs) = (RIdle, repeat Need (length cs - 1) ++ [Got m]).
Proof.
  intros (Hne & Hsum & _ & Hpos & Hemp). destruct cs as [|c cs]; [congruence|].
  unfold frames_of. rewrite cut_cons. cbn [rrun length Nat.sub]. rewrite Nat.sub_0_r.
  (* an envelope is a continuation of the empty partial message *)
  apply (@rrun_more m [] c cs m eq_refl); [|exact Hsum].
  destruct m as [|a m'].
  - specialize (Hemp eq_refl). destruct cs; [constructor|discriminate].
  - exact (Forall_inv_tail (Hpos ltac:(discriminate))).
Qed.

Fixpoint frames_all (mcs : list (list A * list nat)) : list dframe :=
  match mcs with
  | [] => []
  | (m, cs) :: r => frames_of m cs ++ frames_all r
  end.

Theorem stream_roundtrip cmax (mcs : list (list A * list nat)) :
  Forall (fun mc => legal cmax (snd mc) (fst mc)) mcs ->
  fst (rrun RIdle (frames_all mcs)) = RIdle /\
  delivered_of (frames_all mcs) = map fst mcs.
Proof.
  induction mcs as [|[m cs] r IH]; intro H; [split; reflexivity|].
  apply Forall_cons_iff in H as [Hl [IH1 IH2]%IH]. unfold delivered_of in *. cbn [frames_all map fst snd] in *.
  rewrite rrun_app, (reasm_roundtrip Hl). cbn [fst snd].
  split; [assumption|]. now rewrite !gots_app, gots_repeat_need, IH2.
Qed.

(* exactly-once, in-order, intact: whatever prefix of the frame stream the reader has
   consumed, what it has delivered is a prefix of what was submitted *)
Theorem delivered_prefix cmax (mcs : list (list A * list nat)) k :
  Forall (fun mc => legal cmax (snd mc) (fst mc)) mcs ->
  prefix (delivered_of (firstn k (frames_all mcs))) (map fst mcs).
Proof.
  intro H. destruct (stream_roundtrip H) as [_ <-]. apply delivered_of_mono, prefix_firstn.
Qed.

(* no fabrication: a message is only ever produced from an envelope announcing its length *)
Lemma rstep_got (s : rstate) f s' (m : list A) : rstep s f = (s', Got m) ->
  s' = RIdle /\
  ((exists sz d, s = RIdle /\ f = Env sz d /\ m = d /\ lenN m = sz) \/
   (exists sz b d, s = RPart sz b /\ f = More d /\ m = b ++ d /\ lenN m = sz)).
Proof.
  assert (Hfill : forall sz b, fill sz b = (s', Got m) -> s' = RIdle /\ m = b /\ lenN m = sz).
  { unfold fill. intros sz b H. destruct (sz <? lenN b)%N; [discriminate|].
    destruct (N.eqb_spec (lenN b) sz); inversion H; subst; auto. }
  destruct s as [|sz b|], f as [sz' d|d]; try discriminate; intros (-> & -> & Hl)%Hfill; (split; [reflexivity|]).
  - left. now exists sz', d.
  - right. now exists sz, b, d.
Qed.

(* failure is sticky and total: any frame sequence is classified, none gets the reader stuck *)
Lemma rrun_failed (fs : list dframe) :
  fst (rrun RFailed fs) = RFailed /\ gots (snd (rrun RFailed fs)) = [].
Proof.
  induction fs as [|f fs [IH1 IH2]]; [split; reflexivity|].
  cbn [rrun rstep]. destruct (rrun RFailed fs) as [s os]. auto.
Qed.

(* last clause: the flow-controlled sender's loop has finished once it has observed more windows
   (all positive) than there are bytes *)
Lemma chunks_fc_spec cmax : 0 < cmax -> forall ws rem,
  Forall (fun w => 0 < w) ws ->
  let cs := chunks_fc cmax ws rem in
  Forall (fun c => c <= cmax) cs /\ (0 < rem -> Forall (fun c => 0 < c) cs) /\
  (rem = 0 -> length cs <= 1) /\ (rem < length ws -> cs <> [] /\ list_sum cs = rem).
Proof.
  intro Hc. induction ws as [|w ws IH]; intros rem Hw; cbn [chunks_fc length].
  - split; [constructor|]. split; [constructor|]. lia.
  - apply Forall_cons_iff in Hw as [Hw1 Hw2]. set (c := Nat.min w (Nat.min rem cmax)).
    assert (Hcm : c <= cmax /\ c <= rem /\ (0 < rem -> 0 < c)) by lia.
    destruct (Nat.eqb_spec c rem) as [E|E].
    + split; [|split]; [repeat constructor; lia..|]. cbn. split; [|split; [discriminate|]]; lia.
    + destruct (IH (rem - c) Hw2) as (I1 & I2 & I3 & I4). rewrite list_sum_cons.
      split; [constructor; [lia|exact I1]|]. split; [intro; constructor; [|apply I2]; lia|].
      split; [lia|]. intro Hl. split; [discriminate|lia].
Qed.

Theorem chunks_fc_legal cmax ws (m : list A) : 0 < cmax ->
  Forall (fun w => 0 < w) ws ->
  list_sum (chunks_fc cmax ws (length m)) = length m -> chunks_fc cmax ws (length m) <> [] ->
  legal cmax (chunks_fc cmax ws (length m)) m.
Proof.
  intros Hc Hw Hs Hne. destruct (chunks_fc_spec Hc (length m) Hw) as (I1 & I2 & I3 & _).
  repeat split; try assumption.
  - intro Hm. apply I2. destruct m; [congruence|cbn; lia].
  - (* at most one chunk (I3) and not none (Hne) *)
    intros ->. specialize (I3 eq_refl).
    destruct (chunks_fc cmax ws (length [])) as [|c [|c' cs]]; [congruence|reflexivity|cbn in I3; lia].
Qed.

Lemma chunks_nofc_is_fc cmax fuel : forall rem,
  chunks_nofc_fuel fuel cmax rem = chunks_fc cmax (repeat cmax fuel) rem.
Proof.
  induction fuel as [|k IH]; intro rem; cbn [chunks_nofc_fuel chunks_fc repeat]; [reflexivity|].
  replace (Nat.min cmax (Nat.min rem cmax)) with (Nat.min cmax rem) by lia. now rewrite IH.
Qed.

Theorem chunks_nofc_legal cmax (m : list A) : 0 < cmax -> legal cmax (chunks_nofc cmax m) m.
Proof.
  intro Hc. unfold chunks_nofc. rewrite chunks_nofc_is_fc.
  assert (Hw : Forall (fun w => 0 < w) (repeat cmax (S (length m)))) by (apply Forall_forall; intros w ->%repeat_spec; exact Hc).
  assert (Hlt : length m < length (repeat cmax (S (length m)))) by (rewrite repeat_length; lia).
  destruct (chunks_fc_spec Hc (length m) Hw) as (_ & _ & _ & Hfin). destruct (Hfin Hlt) as [Hne Hs].
  now apply chunks_fc_legal.
Qed.

Lemma cut_lengths (cs : list nat) (m : list A) cmax :
  Forall (fun c => c <= cmax) cs -> Forall (fun d => (lenN d <= N.of_nat cmax)%N) (cut cs m).
Proof.
  revert m. induction cs as [|c cs IH]; intros m H; [constructor|].
  apply Forall_cons_iff in H as [H1 H2]. constructor; [|apply IH; assumption].
  unfold lenN. rewrite firstn_length. lia.
Qed.

(* every data frame a sender emits carries at most cmax bytes *)
Theorem frames_bounded cmax (m : list A) cs : legal cmax cs m ->
  Forall (fun f => (dsize f <= N.of_nat cmax)%N) (frames_of m cs).
Proof.
  intros (_ & _ & Hb & _). unfold frames_of. pose proof (cut_lengths m Hb) as H.
  destruct (cut cs m) as [|d ds]; [constructor|]. apply Forall_cons_iff in H as [H1 H2].
  constructor; [exact H1|]. apply Forall_map. exact H2.
Qed.

End P.
