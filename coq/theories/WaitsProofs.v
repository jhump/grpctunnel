From Coq Require Import List Arith.
From GT Require Import Lts Waits.
Import ListNotations.

Lemma winv_in_all_ws client s : winv client s = true -> In s all_ws.
Proof.
  (* of [winv] only its first conjunct is used, finisher_pc s <= 4: [all_ws] lists the counter up to 5 *)
  intro H. repeat (apply andb_prop in H as [H _]).
  destruct s as [a b c d e f p]. repeat (apply in_flat_map; eexists; split; [apply enum_bool|]).
  apply in_map. do 5 (destruct p as [|p]; [cbn; auto 10|]). discriminate.
Qed.

Lemma on_winv client (P : sstate -> bool) :
  forallb (fun s => if winv client s then P s else true) all_ws = true -> forall s, winv client s = true -> P s = true.
Proof.
  intros H s Hi. pose proof (forallb_In _ _ _ H (winv_in_all_ws _ _ Hi)) as H1. cbv beta in H1. now rewrite Hi in H1.
Qed.

Lemma wclosed client : forallb (preserved (wstep client) (winv client) all_wl) all_ws = true.
Proof. destruct client; vm_compute; reflexivity. Qed.

Lemma wrun_runs client : runs_of (wstep client) (wrun client).
Proof. split; reflexivity. Qed.

Lemma wrun_inv client ls s : wrun client st0 ls = Some s -> winv client s = true.
Proof.
  apply (run_inv _ _ (wrun_runs client) (fun s => winv client s = true)); [|now destruct client].
  intros s0 l s1 Hi. apply (preserved_step _ _ all_wl).
  - (* [s0] was checked *) exact (forallb_In _ _ _ (wclosed client) (winv_in_all_ws _ _ Hi)).
  - (* [l] is among the labels *) destruct l; cbn; auto.
  - exact Hi.
Qed.

Lemma wquiescent_exits client s : winv client s = true ->
  implb (ctx_done s && negb (internal_enabled client s)) (all_exits s) = true.
Proof. revert s. apply on_winv. destruct client; vm_compute; reflexivity. Qed.

(* in every quiescent state reached after the stream's context ended (cancel, deadline, or the
   tunnel's tear-down), every blocking point of that stream end has an enabled exit *)
Theorem nothing_hangs_after_context_end client ls s :
  wrun client st0 ls = Some s -> ctx_done s = true -> internal_enabled client s = false -> all_exits s = true.
Proof. intros H Hc Hq. apply wrun_inv, wquiescent_exits in H. now rewrite Hc, Hq in H. Qed.

(* the internal activity of a stream end terminates: each internal step strictly decreases this measure *)
Definition wmeasure (s : sstate) : nat := (if watcher_ran s then 0 else 1) + (5 - finisher_pc s).

Lemma wmeasure_decreases client s : winv client s = true ->
  forallb (fun l => match wstep client s l with Some s' => wmeasure s' <? wmeasure s | None => true end)
    [WatcherStep; FinishStep] = true.
Proof. revert s. apply on_winv. destruct client; vm_compute; reflexivity. Qed.

Theorem internal_activity_terminates client ls s l s' :
  wrun client st0 ls = Some s -> (l = WatcherStep \/ l = FinishStep) -> wstep client s l = Some s' ->
  wmeasure s' < wmeasure s.
Proof.
  intros H Hl Hs. apply wrun_inv, wmeasure_decreases in H.
  apply forallb_In with (x := l) in H; [|destruct Hl; subst; cbn; auto].
  rewrite Hs in H. now apply Nat.ltb_lt.
Qed.
