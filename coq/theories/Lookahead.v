(* Call-shape enforcement on a non-streaming side (readMsg in tunnel_client.go and
   tunnel_server.go): after the first complete message the reader looks ahead; a second
   complete message fails the RPC, end-of-stream releases the first one.  The input is the
   sequence of results of successive readMsgLocked calls, i.e. the reassembly outputs of the
   frames the endpoint received before the half-close / close.  Model + proofs. *)
From Coq Require Import List.
From GT Require Import Frames.
Import ListNotations.
Set Implicit Arguments.

Section L.
Variable A : Type.

Inductive ures := UOk (m : list A) | UEof | UTooMany | UBad.

(* look-ahead: skip incomplete progress; a second complete message or a framing violation fails *)
Fixpoint look (outs : list (rout A)) : bool :=
  match outs with
  | [] => true                 (* end of stream: fine *)
  | Need :: r => look r        (* (a truncated tail is dropped by the closed receiver) *)
  | Got _ :: _ => false
  | Bad _ :: _ => false
  end.
Fixpoint look_err (outs : list (rout A)) : ures :=
  match outs with
  | [] => UEof
  | Need :: r => look_err r
  | Got _ :: _ => UTooMany
  | Bad _ :: _ => UBad
  end.

Fixpoint unary_scan (outs : list (rout A)) : ures :=
  match outs with
  | [] => UEof
  | Need :: r => unary_scan r
  | Bad _ :: _ => UBad
  | Got m :: r => if look r then UOk m else look_err r
  end.

(* what a non-streaming reader returns for the frames received before end-of-stream *)
Definition unary_read (fs : list (dframe A)) : ures := unary_scan (snd (rrun RIdle fs)).

Lemma look_gots outs : look outs = true -> gots outs = [].
Proof.
  induction outs as [|o r IH]; [reflexivity|]. destruct o; try discriminate. cbn [look gots]. exact IH.
Qed.

Lemma look_err_not_ok outs m : look_err outs <> UOk m.
Proof. induction outs as [|[] r IH]; (discriminate || exact IH). Qed.

(* the application obtains a message only if the frames carry exactly one complete message *)
Theorem unary_ok_exactly_one fs m : unary_read fs = UOk m -> delivered_of fs = [m].
Proof.
  unfold unary_read, delivered_of. generalize (snd (rrun RIdle fs)) as outs.
  induction outs as [|[m'| |] r IH]; cbn; try discriminate; [|exact IH].
  destruct (look r) eqn:E; [|intro H; now apply look_err_not_ok in H].
  intros [= ->]. now rewrite (look_gots r E).
Qed.

(* two or more complete messages never yield success *)
Theorem unary_two_fails fs m1 m2 rest : delivered_of fs = m1 :: m2 :: rest -> forall m, unary_read fs <> UOk m.
Proof.
  intros H m E. apply unary_ok_exactly_one in E. rewrite E in H. discriminate.
Qed.

(* zero messages: end-of-stream, never a fabricated message *)
Theorem unary_none_is_eof fs : snd (rrun RIdle fs) = [] -> unary_read fs = UEof.
Proof. unfold unary_read. intros ->. reflexivity. Qed.

End L.

Arguments UEof {A}.
Arguments UTooMany {A}.
Arguments UBad {A}.
