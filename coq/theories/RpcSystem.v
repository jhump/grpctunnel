(* The composed system of Rpc.v: global invariant (components + unbounded queues and histories),
   runs of any length, and the statements the properties use. *)
From Coq Require Import List Bool Arith Lia.
From GT Require Import Lts RpcProofs.
Import ListNotations.

(* [cbn] on a state of the composed system must leave the grammar runs folded: the step lemmas below
   rewrite with [gc_run_app] / [gs_run_app] *)
#[global] Arguments gc_run : simpl never.
#[global] Arguments gs_run : simpl never.
Lemma gc_run_app h em : gc_run (h ++ em) = fold_left gc_step em (gc_run h).
Proof. apply fold_left_app. Qed.
Lemma gs_run_app h em : gs_run (h ++ em) = fold_left gs_step em (gs_run h).
Proof. apply fold_left_app. Qed.

Lemma gs_prefix_ok a b : gs_run (a ++ b) <> GsBad -> gs_run a <> GsBad.
Proof. apply (fold_ok_prefix gs_step GsBad). reflexivity. Qed.

Record ginv (strict : bool) (s : rst) : Prop := mkGinv {
  gi_k : kinv (r_k s) = true;
  gi_v : vinv strict (r_v s) = true;
  gi_gc : k_g (r_k s) = gc_run (h_c s);
  gi_gs : v_g (r_v s) = gs_run (h_s s);
  (* the carrier: new_stream travels first and once; the server emits nothing before it has seen it *)
  gi_q : if seen (r_v s)
         then no_new (q_c s) = true /\ k_new (r_k s) = true
         else q_s s = [] /\ h_s s = [] /\
              (if k_new (r_k s) then exists r, q_c s = FNew :: r /\ no_new r = true else q_c s = []);
  gi_n : n_inv s = if h_live (r_v s) then 1 else 0;
  (* what the client's receive loop has taken so far is the part of the server's emissions that is no longer queued *)
  gi_d : exists d, h_s s = d ++ q_s s /\ k_gin (r_k s) = gs_run d
}.

Lemma ginv_init strict : ginv strict r_init.
Proof.
  constructor; try reflexivity.
  - (* gi_v *) destruct strict; reflexivity.
  - (* gi_q *) cbn. auto.
  - (* gi_d *) exists []. split; reflexivity.
Qed.

Lemma no_new_app a b : no_new (a ++ b) = no_new a && no_new b.
Proof. apply forallb_app. Qed.

Lemma seen_live v : h_live v = true -> seen v = true.
Proof. unfold h_live, seen. destruct (v_h v); auto. Qed.

(* the steps of the composed system are the steps of its components: a step appends what it emits
   to its queue and history, and what it takes ([ktakes], [vtakes]) is the head of the peer's queue *)
Inductive rstep_of (strict : bool) (s : rst) : rst -> Prop :=
| RStepK kl k' em qs' :
    kstep (r_k s) kl = Some (k', em) -> q_s s = ktakes kl ++ qs' ->
    rstep_of strict s (mkRst k' (r_v s) (q_c s ++ em) qs' (h_c s ++ em) (h_s s) (n_inv s))
| RStepV vl v' em qc' :
    vstep strict (r_v s) vl = Some (v', em) -> q_c s = vtakes vl ++ qc' ->
    rstep_of strict s (mkRst (r_k s) v' qc' (q_s s ++ em) (h_c s) (h_s s ++ em) (n_inv s + invoked (r_v s) v')).

Lemma rstep_cases strict s l s' : rstep strict s l = Some s' -> rstep_of strict s s'.
Proof.
  intros H. destruct l as [l|bad|l|m]; cbn in H.
  - destruct l; try discriminate; destruct (kstep _ _) as [[k' em]|] eqn:Hs; inversion H; eapply RStepK; eauto.
  - destruct (q_s s) as [|f r] eqn:Hq; [discriminate|].
    destruct (kstep _ _) as [[k' em]|] eqn:Hs; inversion H. apply (RStepK _ _ (CLoop f bad)); auto.
  - destruct l; try discriminate; destruct (vstep _ _ _) as [[v' em]|] eqn:Hs; inversion H;
      pose proof (RStepV strict s _ _ _ (q_c s) Hs eq_refl) as R;
      rewrite (only_the_serve_loop_invokes _ _ _ _ _ Hs I), Nat.add_0_r in R; exact R.
  - destruct (q_c s) as [|f r] eqn:Hq; [discriminate|].
    destruct (vstep _ _ _) as [[v' em]|] eqn:Hs; inversion H. apply (RStepV _ _ (SLoop f m)); auto.
Qed.
Lemma rstep_of_step strict s s' : rstep_of strict s s' -> exists l, rstep strict s l = Some s'.
Proof.
  intros [kl k' em qs' Hs Hq|vl v' em qc' Hs Hq].
  - destruct kl as [| | | | | | | | | | | |f bad]; cbn in Hq;
      try (subst qs'; match type of Hs with kstep _ ?l = _ => exists (LK l) end; cbn [rstep]; rewrite Hs; reflexivity).
    exists (LKLoop bad). cbn [rstep]. rewrite Hq, Hs. reflexivity.
  - destruct vl as [f m| | | | | | | | | |]; cbn in Hq;
      try (subst qc'; match type of Hs with vstep _ _ ?l = _ => exists (LV l) end; cbn [rstep];
           rewrite Hs, (only_the_serve_loop_invokes _ _ _ _ _ Hs I), Nat.add_0_r; reflexivity).
    exists (LVLoop m). cbn [rstep]. rewrite Hq, Hs. reflexivity.
Qed.

(* a client step.  What the receive loop has taken, with the frame it takes now, is a prefix of the
   server's conforming history, so the loop's assumption [kenv] holds *)
Lemma ginv_step_k strict s l k' em qs' :
  ginv strict s -> kstep (r_k s) l = Some (k', em) -> q_s s = ktakes l ++ qs' ->
  ginv strict (mkRst k' (r_v s) (q_c s ++ em) qs' (h_c s ++ em) (h_s s) (n_inv s)).
Proof.
  intros [Hk Hv Hgc Hgs Hq Hn (d & Hd1 & Hd2)] Hs Hqs. rewrite Hqs, app_assoc in Hd1.
  assert (Hd2' : k_gin k' = gs_run (d ++ ktakes l)).
  { rewrite gs_run_app, <- Hd2. exact (kstep_gin _ _ _ _ Hs). }
  assert (Hnb : k_gin k' <> GsBad).
  { rewrite Hd2'. apply (gs_prefix_ok _ qs'). rewrite <- Hd1, <- Hgs.
    exact (vinv0_conforms _ _ (proj2 (vinv_vinv0 _ _ Hv))). }
  assert (He : kenv (r_k s) l = true).
  { destruct l as [| | | | | | | | | | | |f bad]; try reflexivity.
    rewrite (kstep_gin _ _ _ _ Hs) in Hnb. cbn in Hnb |- *.
    (* while the id is unseen the server has emitted nothing: a frame is queued only once the stream exists *)
    destruct (seen (r_v s)); [|destruct Hq as [Hq _]; rewrite Hq in Hqs; discriminate].
    destruct Hq as [_ ->]. destruct (gs_step _ f); (reflexivity || congruence). }
  destruct (kstep_ok _ _ _ _ Hk He Hs) as (Hk' & Hem).
  constructor; cbn; auto.
  - (* gi_gc *) rewrite gc_run_app, <- Hgc. eapply kstep_g, Hs.
  - (* gi_q *) unfold kem_ok in Hem. destruct (seen (r_v s)).
    + destruct Hq as [Hq1 Hq2]. rewrite Hq2 in Hem. rewrite no_new_app, Hq1, andb_true_l. apply andb_true_iff, Hem.
    + destruct Hq as (Hq1 & Hq2 & Hq3). rewrite Hq1 in Hqs.
      destruct (app_eq_nil _ _ (eq_sym Hqs)) as [_ ->]. split; [auto|split; [auto|]].
      destruct (k_new (r_k s)).
      * apply andb_true_iff in Hem. destruct Hem as [Hem ->].
        destruct Hq3 as (r & -> & Hr). exists (r ++ em). rewrite no_new_app, Hr, Hem. auto.
      * rewrite Hq3. destruct em as [|[] [|? ?]]; try discriminate Hem.
        -- (* nothing emitted *) apply negb_true_iff in Hem. rewrite Hem. reflexivity.
        -- (* newStream *) rewrite Hem. exists []. split; reflexivity.
  - (* gi_d *) exists (d ++ ktakes l). auto.
Qed.

(* a server step.  The carrier invariant makes the frame the serve loop takes one a conforming client
   sends: new_stream exactly when the id is unseen *)
Lemma ginv_step_v strict s l v' em qc' :
  ginv strict s -> vstep strict (r_v s) l = Some (v', em) -> q_c s = vtakes l ++ qc' ->
  ginv strict (mkRst (r_k s) v' qc' (q_s s ++ em) (h_c s) (h_s s ++ em) (n_inv s + invoked (r_v s) v')).
Proof.
  intros [Hk Hv Hgc Hgs Hq Hn Hd] Hs Hqc. rewrite Hqc in Hq.
  assert (He : venv (r_v s) l = true).
  { destruct l as [f m| | | | | | | | | |]; try reflexivity. cbn in Hq |- *. destruct (seen (r_v s)).
    - (* seen: no new_stream is queued *) destruct Hq as [Hq _]. destruct f; (reflexivity || discriminate).
    - (* unseen: a queued frame is new_stream *) destruct Hq as (_ & _ & Hq). destruct (k_new (r_k s)); [|discriminate].
      destruct Hq as (r0 & [= -> _] & _). reflexivity. }
  pose proof (vstep_ok _ _ _ _ _ Hv He Hs) as Hv'.
  pose proof (vstep_ids _ _ _ _ _ Hs) as Hids.
  constructor; cbn; auto.
  - (* gi_gs *) rewrite gs_run_app, <- Hgs. eapply vstep_g, Hs.
  - (* gi_q *) rewrite Hids. destruct (seen (r_v s)) eqn:Es; cbn [orb].
    + (* already seen: stays seen; the queue only loses frames *)
      destruct Hq as [Hq1 Hq2]. rewrite no_new_app in Hq1. apply andb_true_iff in Hq1. tauto.
    + destruct Hq as (Hq1 & Hq2 & Hq3).
      assert (em = []) as ->.
      { destruct em; [reflexivity|].
        rewrite (vstep_emits_seen _ _ _ _ _ (proj2 (vinv_vinv0 _ _ Hv)) Hs) in Es; discriminate. }
      rewrite !app_nil_r. destruct (vtakes l) as [|f t]; [cbn; auto|].
      (* the serve loop takes a frame while the id is unseen: it is new_stream *)
      destruct (k_new (r_k s)); [|discriminate Hq3].
      destruct Hq3 as (r & [= -> <-] & Hr). rewrite no_new_app in Hr. apply andb_true_iff in Hr. cbn. tauto.
  - (* gi_n: the handler state only moves forward, and HNone -> HRun is the one invocation *)
    rewrite Hn. unfold invoked, h_live.
    destruct (vstep_h _ _ _ _ _ Hs) as [->|[[-> ->]|(-> & [->| ->] & _)]]; try reflexivity.
    (* left: the handler state has not changed *) destruct (v_h (r_v s)); reflexivity.
  - (* gi_d *) destruct Hd as (d & Hd1 & Hd2). exists d. split; [rewrite Hd1, app_assoc; reflexivity | exact Hd2].
Qed.

Lemma ginv_step strict s l s' : ginv strict s -> rstep strict s l = Some s' -> ginv strict s'.
Proof.
  intros I H.
  destruct (rstep_cases _ _ _ _ H); eauto using ginv_step_k, ginv_step_v.
Qed.

Lemma rrun_runs strict : runs_of (rstep strict) (rrun strict).
Proof. split; reflexivity. Qed.
Theorem rpc_run_inv strict ls s : rrun strict r_init ls = Some s -> ginv strict s.
Proof. exact (run_inv _ _ (rrun_runs strict) _ (ginv_step strict) ls _ _ (ginv_init strict)). Qed.

Lemma gc_prefix_ok a b : gc_run (a ++ b) <> GcBad -> gc_run a <> GcBad.
Proof. apply (fold_ok_prefix gc_step GcBad). reflexivity. Qed.

(* an accepted history that has brought the client grammar into the states [P], which only GcBad
   leaves and which refuse the frames [Q], has no such frame afterwards *)
Lemma gc_refused (P : gc -> Prop) (Q : cframe -> Prop) pre post :
  (forall g f, P g -> gc_step g f = GcBad \/ P (gc_step g f)) -> (forall g f, P g -> Q f -> gc_step g f = GcBad) ->
  gc_run (pre ++ post) <> GcBad -> gc_run pre = GcBad \/ P (gc_run pre) -> forall f, In f post -> ~ Q f.
Proof.
  intros Hstay Hq Hok [E|Hp]; [exfalso; exact (gc_prefix_ok _ _ Hok E)|]. rewrite gc_run_app in Hok.
  exact (fold_refused gc_step GcBad (fun _ => eq_refl) P Q Hstay Hq post _ Hp Hok).
Qed.

(* after a half-close any request data, or a second half-close, is a violation *)
Theorem conforming_no_data_after_half_close h pre post :
  gc_run h <> GcBad -> h = pre ++ FHalf :: post -> ~ In FReq post /\ ~ In FHalf post.
Proof.
  intros Hok ->. change (pre ++ FHalf :: post) with (pre ++ [FHalf] ++ post) in Hok. rewrite app_assoc in Hok.
  assert (R : forall f, In f post -> ~ (f = FReq \/ f = FHalf)).
  { apply (gc_refused (fun g => exists c, g = GcOpen true c) _ (pre ++ [FHalf]) post); [| |exact Hok|].
    - intros g f [c ->]. destruct f, c; cbn; eauto.
    - intros g f [c ->] [-> | ->]; reflexivity.
    - rewrite gc_run_app. cbn. destruct (gc_run pre) as [|[] c|]; cbn; eauto. }
  split; intros Hin; apply (R _ Hin); auto.
Qed.
(* after a cancel a second cancel is a violation *)
Theorem conforming_cancel_once h pre post :
  gc_run h <> GcBad -> h = pre ++ FCancel :: post -> ~ In FCancel post.
Proof.
  intros Hok -> Hin. change (pre ++ FCancel :: post) with (pre ++ [FCancel] ++ post) in Hok. rewrite app_assoc in Hok.
  apply (gc_refused (fun g => exists h, g = GcOpen h true) (eq FCancel) (pre ++ [FCancel]) post) with (f := FCancel);
    [| |exact Hok| |exact Hin|reflexivity].
  - intros g f [h ->]. destruct f, h; cbn; eauto.
  - intros g f [h ->] <-. reflexivity.
  - rewrite gc_run_app. cbn. destruct (gc_run pre) as [|h []|]; cbn; eauto.
Qed.
(* every stream begins with its new_stream frame, and has only one *)
Theorem conforming_new_stream_first h :
  gc_run h <> GcBad -> h = [] \/ exists r, h = FNew :: r /\ ~ In FNew r.
Proof.
  destruct h as [|f r]; [auto|]. intros Hok. right.
  destruct f; try (exfalso; apply (gc_prefix_ok [_] r Hok); reflexivity).
  exists r. split; [reflexivity|]. intros Hin.
  apply (gc_refused (fun g => exists a b, g = GcOpen a b) (eq FNew) [FNew] r) with (f := FNew);
    [| |exact Hok| |exact Hin|reflexivity].
  - intros g f (a & b & ->). destruct f, a, b; cbn; eauto.
  - intros g f (a & b & ->) <-. reflexivity.
  - right. unfold gc_run. cbn. eauto.
Qed.

Lemma count_close_app a b : count_close (a ++ b) = count_close a + count_close b.
Proof. induction a as [|x a IH]; [reflexivity|]. destruct x; cbn; rewrite IH; reflexivity. Qed.
Lemma gs_close_count h :
  match gs_run h with
  | GsStart | GsHdr => count_close h = 0
  | GsClosed | GsClosedWu => count_close h = 1
  | GsBad => True
  end.
Proof.
  induction h as [|f h IH] using rev_ind; [reflexivity|].
  rewrite gs_run_app, count_close_app. cbn [fold_left].
  destruct (gs_run h), f; cbn; try exact I; lia.
Qed.
Lemma conforming_at_most_one_close h : gs_run h <> GsBad -> count_close h <= 1.
Proof. intros Hb. pose proof (gs_close_count h) as Hc. destruct (gs_run h); try lia. congruence. Qed.
(* when the automaton sits in GsClosed, the close frame is the last frame and the only one *)
Theorem conforming_close_is_last h pre post :
  gs_run h = GsClosed -> h = pre ++ FClose :: post -> post = [].
Proof.
  intros Hg E. destruct h as [|f0 h0 _] using rev_ind; [discriminate|].
  rewrite gs_run_app in Hg. cbn [fold_left] in Hg.
  pose proof (gs_close_count h0) as Hc.
  assert (f0 = FClose /\ count_close h0 = 0) as [-> Hc0].
  { destruct (gs_run h0), f0; try discriminate; auto. }
  destruct post as [|p post _] using rev_ind; [reflexivity|]. exfalso.
  change (pre ++ FClose :: post ++ [p]) with (pre ++ (FClose :: post) ++ [p]) in E.
  rewrite app_assoc in E. apply app_inj_tail in E. destruct E as [-> _].
  rewrite count_close_app in Hc0. cbn in Hc0. lia.
Qed.

Lemma run_kinv strict ls s : rrun strict r_init ls = Some s -> kinv (r_k s) = true.
Proof. intros H. exact (gi_k _ _ (rpc_run_inv _ _ _ H)). Qed.
Lemma run_vinv0 strict ls s : rrun strict r_init ls = Some s -> vinv0 strict (r_v s) = true.
Proof. intros H. exact (proj2 (vinv_vinv0 _ _ (gi_v _ _ (rpc_run_inv _ _ _ H)))). Qed.

(* a stream whose handler returned or that was refused, with no close frame out yet: the handler's
   finisher, the close goroutine or the refusal goroutine is still on its way *)
Lemma v_close_progress strict v :
  vinv0 strict v = true -> v_h v = HRet \/ v_h v = HRej -> v_g v <> GsClosed -> v_g v <> GsClosedWu ->
  exists l, In l [SFinH; SCloseGo; SRejGo] /\ vstep strict v l <> None.
Proof.
  intros Hv Hh Hc Hw. pose proof (vinv0_says _ _ Hv) as V.
  pose proof (vi_g _ _ V) as Hg. pose proof (vi_closed _ _ V) as Hcl. pose proof (vi_ret _ _ V) as Hr. unfold g_okb in Hg.
  unfold vstep, vstep0, s_fin. destruct Hh as [Hh|Hh]; rewrite Hh in Hg.
  - destruct (v_cg v).
    + (* not closed yet: the finisher the handler's return started has not got to its last step *)
      exists SFinH. split; [cbn; auto|]. specialize (Hr Hh). cbn in Hcl.
      destruct (v_hf v); [|discriminate..|destruct (v_closed v); discriminate].
      (* S0: a finisher that is through has closed the stream *) rewrite Hr in Hcl by reflexivity. discriminate Hcl.
    + exists SCloseGo. split; [cbn; auto|discriminate].
    + exists SCloseGo. split; [cbn; auto|discriminate].
    + destruct (v_g v); try discriminate Hg; congruence.
  - exists SRejGo. split; [cbn; auto|]. destruct (v_rej_go v); [discriminate|].
    apply gs_eqb_eq in Hg. congruence.
Qed.
(* ... and none of them has a step left once the server's side is quiet *)
Lemma quiet_no_close_step strict v l : s_quiet v = true -> In l [SFinH; SCloseGo; SRejGo] -> vstep strict v l = None.
Proof.
  unfold s_quiet. intros Hq Hl.
  destruct (v_lf v), (v_hf v) eqn:Ehf, (v_cg v) eqn:Ecg, (v_rej_go v) eqn:Erej; try discriminate Hq;
    destruct Hl as [<-|[<-|[<-|[]]]]; unfold vstep, vstep0, s_fin; rewrite ?Ehf, ?Ecg, ?Erej; reflexivity.
Qed.

Section Statements.
Variable strict : bool.
Variables (ls : list rlbl) (s : rst).
Hypothesis Hrun : rrun strict r_init ls = Some s.

(* C13: the frames a tunnel client emits on a stream conform *)
Theorem rpc_client_frames_conform : gc_run (h_c s) <> GcBad.
Proof.
  rewrite <- (gi_gc _ _ (rpc_run_inv _ _ _ Hrun)). exact (kinv_conforms _ (run_kinv _ _ _ Hrun)).
Qed.

(* C13: the frames a tunnel server emits on a stream conform *)
Theorem rpc_server_frames_conform : gs_run (h_s s) <> GsBad.
Proof.
  rewrite <- (gi_gs _ _ (rpc_run_inv _ _ _ Hrun)). exact (vinv0_conforms _ _ (run_vinv0 _ _ _ Hrun)).
Qed.

Theorem rpc_at_most_one_close : count_close (h_s s) <= 1.
Proof.
  exact (conforming_at_most_one_close _ rpc_server_frames_conform).
Qed.

(* C13 / C14: once the handler has returned (or the stream was refused) and the server's goroutines
   for the stream have run, exactly one close frame has been emitted *)
Theorem rpc_exactly_one_close_when_settled :
  (v_h (r_v s) = HRet \/ v_h (r_v s) = HRej) -> s_quiet (r_v s) = true -> count_close (h_s s) = 1.
Proof.
  intros Hh Hq. pose proof (gs_close_count (h_s s)) as Hcc. rewrite <- (gi_gs _ _ (rpc_run_inv _ _ _ Hrun)) in Hcc.
  (* were the close frame not out, one of the goroutines that lead to it could step: the server would not be quiet *)
  destruct (v_g (r_v s)) eqn:Eg; try exact Hcc; exfalso.
  all: destruct (v_close_progress strict (r_v s) (run_vinv0 _ _ _ Hrun) Hh) as (l & Hl & He); try (rewrite Eg; discriminate).
  all: exact (He (quiet_no_close_step _ _ _ Hq Hl)).
Qed.

(* C08: one RPC, at most one handler invocation, and exactly one once the stream was accepted *)
Theorem rpc_at_most_one_invocation : n_inv s <= 1 /\ (n_inv s = 1 <-> h_live (r_v s) = true).
Proof.
  rewrite (gi_n _ _ (rpc_run_inv _ _ _ Hrun)).
  destruct (h_live (r_v s)); lia.
Qed.

(* C03 / C07 / C08: whatever the order of sends, half-close, cancellation, completion, refusal and
   late frames, neither receive loop ever meets a frame it treats as a tunnel-level violation *)
Theorem rpc_tunnel_survives : k_err (r_k s) = false /\ v_err (r_v s) = false.
Proof.
  exact (conj (ki_err _ (kinv_says _ (run_kinv _ _ _ Hrun))) (proj1 (vinv_vinv0 _ _ (gi_v _ _ (rpc_run_inv _ _ _ Hrun))))).
Qed.

(* C14: finished means removed from the tables *)
Theorem rpc_tables_clean :
  (k_done (r_k s) <> None -> c_quiet (r_k s) = true -> k_tab (r_k s) = false) /\
  (v_h (r_v s) = HRet -> v_hf (r_v s) = S0 -> v_tab (r_v s) = false) /\
  (v_h (r_v s) = HRej \/ v_h (r_v s) = HNone -> v_tab (r_v s) = false) /\
  (v_closed (r_v s) = true -> v_tab (r_v s) = false).
Proof.
  pose proof (kinv_says _ (run_kinv _ _ _ Hrun)) as K. pose proof (vinv0_says _ _ (run_vinv0 _ _ _ Hrun)) as V.
  repeat split.
  - (* quiet and finished: the winner is past removeStream *)
    intros Hd Hq. rewrite (ki_tab _ K). pose proof (ki_stage _ K) as Hst. unfold c_quiet in Hq.
    destruct (k_stage (r_k s)); try discriminate Hq; [|apply andb_false_r].
    destruct (k_done (r_k s)); [discriminate Hst|congruence].
  - intros Hh Hf. destruct (v_tab (r_v s)) eqn:Et; [|reflexivity].
    rewrite (proj2 (vi_tab _ _ V Et) Hh) in Hf. discriminate.
  - intros Hh. apply (vi_idle _ _ V). unfold h_live. destruct Hh as [-> | ->]; reflexivity.
  - intros Hc. destruct (v_tab (r_v s)) eqn:Et; [|reflexivity]. rewrite (proj1 (vi_tab _ _ V Et)) in Hc. discriminate.
Qed.
End Statements.

(* C13: with the handler's reads confined to its own goroutine, the close frame is the last frame
   of a stream the handler ended *)
Theorem rpc_close_is_last_when_handler_ended ls s pre post :
  rrun true r_init ls = Some s -> v_fin (r_v s) = Some SHandler ->
  h_s s = pre ++ FClose :: post -> post = [].
Proof.
  intros Hrun Hf E. pose proof (vi_last _ _ (vinv0_says _ _ (run_vinv0 _ _ _ Hrun)) eq_refl Hf) as Hl.
  rewrite (gi_gs _ _ (rpc_run_inv _ _ _ Hrun)) in Hl.
  pose proof (rpc_server_frames_conform _ _ _ Hrun) as Hb.
  pose proof (gs_close_count (h_s s)) as Hc.
  (* GsBad is excluded by [Hb], GsClosedWu by [Hl]; before a close ([Hc]: none counted) there is no close frame *)
  destruct (gs_run (h_s s)) eqn:Eg; try congruence; [| |eapply conforming_close_is_last; eauto].
  all: rewrite E, count_close_app in Hc; cbn in Hc; lia.
Qed.

(* ... and without that confinement it is not: a read that is between its half-close check and its
   Send when the handler returns puts a window update after the close frame *)
Definition wu_after_close_run : list rlbl :=
  [LK CNew; LVLoop LNormal; LV SWuCheck; LV HReturn; LV SFinH; LV SFinH; LV SFinH; LV SCloseGo; LV SCloseGo; LV SWuSend].
Theorem rpc_close_is_last_needs_confinement :
  exists s, rrun false r_init wu_after_close_run = Some s /\ v_fin (r_v s) = Some SHandler /\
            h_s s = [FHdr; FClose; FSwu].
Proof. eexists. vm_compute. repeat split. Qed.

(* C07: the first cause wins on both ends, from any state, along any run *)
Theorem rpc_outcome_write_once strict ls : forall s s',
  rrun strict s ls = Some s' ->
  (forall c, k_done (r_k s) = Some c -> k_done (r_k s') = Some c) /\
  (forall c, v_fin (r_v s) = Some c -> v_fin (r_v s') = Some c).
Proof.
  intros s s'.
  apply (run_inv _ _ (rrun_runs strict)
           (fun s' => (forall c, k_done (r_k s) = Some c -> k_done (r_k s') = Some c) /\
                      (forall c, v_fin (r_v s) = Some c -> v_fin (r_v s') = Some c))); [|auto].
  intros s1 l s2 [H1 H2] E. destruct (rstep_cases _ _ _ _ E); cbn; eauto using kstep_done_write_once, vstep_fin_write_once.
Qed.

(* C09: the server's side of a stream against ANY peer: whatever frames the serve loop is handed for
   the id, in whatever order (new_stream late, twice, never; data after half-close; ...), what the
   server emits for the stream conforms and carries at most one close *)
Fixpoint vrun (strict : bool) (v : sv) (ls : list vlbl) : option (sv * list sframe) :=
  match ls with
  | [] => Some (v, [])
  | l :: r => match vstep strict v l with
              | Some (v1, em) => match vrun strict v1 r with Some (v2, em2) => Some (v2, em ++ em2) | None => None end
              | None => None
              end
  end.
Lemma vinv0_init strict : vinv0 strict v_init = true. Proof. destruct strict; reflexivity. Qed.
Lemma vrun_hostile strict ls : forall v v' h em,
  vinv0 strict v = true -> v_g v = gs_run h -> vrun strict v ls = Some (v', em) ->
  vinv0 strict v' = true /\ v_g v' = gs_run (h ++ em).
Proof.
  induction ls as [|l ls IH]; cbn; intros v v' h em Hi Hg H.
  - inversion H; subst. rewrite app_nil_r. auto.
  - destruct (vstep strict v l) as [[v1 em1]|] eqn:E; [|discriminate].
    destruct (vrun strict v1 ls) as [[v2 em2]|] eqn:E2; [|discriminate]. inversion H; subst v' em.
    rewrite app_assoc. apply (IH v1 v2 (h ++ em1) em2); eauto using vstep_ok_hostile.
    rewrite gs_run_app, <- Hg. eapply vstep_g, E.
Qed.
Theorem server_stream_conforms_against_any_peer strict ls v em :
  vrun strict v_init ls = Some (v, em) -> gs_run em <> GsBad /\ count_close em <= 1.
Proof.
  intros H. destruct (vrun_hostile strict ls v_init v [] em (vinv0_init strict) eq_refl H) as [Hi Hg].
  cbn in Hg.
  pose proof (vinv0_conforms _ _ Hi) as Hb. rewrite Hg in Hb. exact (conj Hb (conforming_at_most_one_close _ Hb)).
Qed.

(* non-vacuity: a unary exchange, a cancellation racing the close, a refusal *)
Definition unary_run : list rlbl :=
  [LK CNew; LK CSend; LK CHalf; LVLoop LNormal; LVLoop LNormal; LVLoop LNormal; LV HSend; LV HReturn;
   LV SFinH; LV SFinH; LV SFinH; LV SCloseGo; LKLoop false; LKLoop false; LKLoop false; LK CRemove; LK CPublish; LK CWatch].
Example unary_run_ok :
  exists s, rrun true r_init unary_run = Some s /\ h_c s = [FNew; FReq; FHalf] /\ h_s s = [FHdr; FResp; FClose] /\
            n_inv s = 1 /\ k_done (r_k s) = Some LoopClose /\ k_tab (r_k s) = false /\ v_tab (r_v s) = false /\
            s_quiet (r_v s) = true /\ c_quiet (r_k s) = true.
Proof. eexists. vm_compute. repeat split. Qed.
Definition cancel_race_run : list rlbl :=
  [LK CNew; LVLoop LNormal; LV HReturn; LV SFinH; LV SFinH; LV SFinH; LV SCloseGo; LV SCloseGo;
   LK CCtxEnd; LK CWatch; LKLoop false; LKLoop false; LK CRemove; LK CPublish; LK CGoCancel; LVLoop LNormal].
Example cancel_race_run_ok :
  exists s, rrun true r_init cancel_race_run = Some s /\ k_done (r_k s) = Some ByCtx /\
            h_c s = [FNew; FCancel] /\ h_s s = [FHdr; FClose] /\ q_c s = [] /\ q_s s = [] /\
            k_err (r_k s) = false /\ v_err (r_v s) = false.
Proof. eexists. vm_compute. repeat split. Qed.
Example refusal_run_ok :
  exists s, rrun true r_init [LK CNew; LK CSend; LVLoop LReject; LVLoop LNormal; LV SRejGo; LKLoop false] = Some s /\
            h_s s = [FClose] /\ n_inv s = 0 /\ k_done (r_k s) = Some LoopClose /\ v_err (r_v s) = false.
Proof. eexists. vm_compute. repeat split. Qed.
