(* The tunnel ends at the calling end (Close, the tunnel's context, a carrier failure: CChanEnd in Rpc.v):
   what C04 says about one RPC, in every interleaving of the composed system.  At the end of the
   file: when the caller has its headers (C02). *)
From Coq Require Import List Bool.
From GT Require Import RpcProofs RpcSystem RpcProgress.
Import ListNotations.

Section ChanEnd.
Variable strict : bool.
Variables (ls : list rlbl) (s : rst).
Hypothesis Hrun : rrun strict r_init ls = Some s.
Hypothesis Hend : k_chend (r_k s) = true.

(* C04: RPCs started on that tunnel afterwards fail immediately instead of hanging *)
Theorem rpc_started_after_the_end_fails_at_once :
  k_new (r_k s) = false ->
  exists s', rstep strict s (LK CNew) = Some s' /\ k_new (r_k s') = false /\ h_c s' = h_c s /\ q_c s' = q_c s.
(* a computation on [kstep]; [Hrun] is not needed, and is kept in the statement *)
Proof using Hrun Hend.
  intros Hn. cbn [rstep]. unfold kstep. cbn [kstep0]. rewrite Hn, Hend.
  eexists. split; [reflexivity|]. cbn. rewrite !app_nil_r. auto.
Qed.

(* C04: every in-flight call on the calling side gets its terminal result by steps of the client's own
   goroutines (the context was cancelled: rpc_cancel_never_waits_for_the_peer applies) *)
Theorem rpc_in_flight_call_is_released :
  k_new (r_k s) = true -> k_sig (r_k s) = false ->
  k_tab (r_k s) = false /\
  exists l, In l [CWatch; CRemove; CPublish] /\ exists s', rstep strict s (LK l) = Some s'.
Proof.
  intros Hn Hs. pose proof (kinv_says _ (run_kinv _ _ _ Hrun)) as K.
  pose proof (ki_tab _ K) as Ht. pose proof (ki_end _ K) as Hc. rewrite Hend, Hn in *. cbn in Ht, Hc. split; [exact Ht|].
  exact (rpc_cancel_never_waits_for_the_peer strict ls s Hrun Hn (Hc eq_refl) Hs).
Qed.
End ChanEnd.

(* C04: ... and that result is not the peer's: once the channel has ended, an unfinished call can only be
   finished by its cancelled context or by its own reader, whatever frames are still handed over
   (the table was dropped, and the receive loop only finishes streams it finds there) *)
Theorem rpc_unfinished_call_cannot_succeed_after_the_end strict s l s' :
  kinv (r_k s) = true -> k_chend (r_k s) = true -> k_done (r_k s) = None -> rstep strict s l = Some s' ->
  k_done (r_k s') = None \/ k_done (r_k s') = Some ByCtx \/ k_done (r_k s') = Some ByReader.
Proof.
  intros Hk He Hd Hs.
  destruct (rstep_cases _ _ _ _ Hs) as [kl k' em qs' Hks _|]; cbn; [|auto].
  pose proof (ki_tab _ (kinv_says _ Hk)) as Ht. rewrite He in Ht. cbn [negb] in Ht. rewrite andb_false_r in Ht.
  destruct (k_done k') as [c|] eqn:Hd'; [|auto].
  destruct c; auto; rewrite (kstep_loop_cause _ _ _ _ _ Hks Hd Hd' eq_refl) in Ht; discriminate.
Qed.

(* non-vacuity: a call in flight when the channel is closed ends as cancelled; the peer's close, still
   in the carrier, is ignored; a later call fails at once *)
Example chan_end_run_ok :
  exists s, rrun true r_init [LK CNew; LVLoop LNormal; LV HReturn; LV SFinH; LV SFinH; LV SFinH; LV SCloseGo; LV SCloseGo;
                              LK CChanEnd; LKLoop false; LKLoop false; LK CWatch; LK CRemove; LK CPublish] = Some s /\
            k_done (r_k s) = Some ByCtx /\ k_sig (r_k s) = true /\ k_tab (r_k s) = false /\ k_err (r_k s) = false /\ q_s s = [].
Proof. eexists. vm_compute. repeat split. Qed.

(* in every interleaving: once a response message frame has been accepted for the caller, the headers have
   been recorded (Header() returns at once, the grpc.Header targets are filled) - because the server emits
   headers before its first message (rpc_server_frames_conform), the carrier is FIFO, and the loop takes the
   headers while the stream is still in its table; and they are published at the latest with the result *)
Theorem rpc_headers_no_later_than_first_message strict ls s :
  rrun strict r_init ls = Some s ->
  (k_gotmsg (r_k s) = true -> k_hdrs (r_k s) = true) /\ (k_sig (r_k s) = true -> k_hdrs (r_k s) = true).
Proof.
  intros Hrun. exact (conj (ki_msg _ (kinv_says _ (run_kinv _ _ _ Hrun))) (ki_pub _ (kinv_says _ (run_kinv _ _ _ Hrun)))).
Qed.
(* what the client's loop takes for the id is always a conforming server emission sequence *)
Theorem rpc_client_is_handed_conforming_frames strict ls s :
  rrun strict r_init ls = Some s -> exists d, h_s s = d ++ q_s s /\ gs_run d <> GsBad.
Proof.
  intros Hrun. destruct (gi_d _ _ (rpc_run_inv _ _ _ Hrun)) as (d & Hd1 & Hd2).
  exists d. split; [exact Hd1|]. apply (gs_prefix_ok d (q_s s)). rewrite <- Hd1. exact (rpc_server_frames_conform _ _ _ Hrun).
Qed.
Example headers_run_ok :
  exists s, rrun true r_init [LK CNew; LVLoop LNormal; LV HSend; LKLoop false; LKLoop false] = Some s /\
            k_gotmsg (r_k s) = true /\ k_hdrs (r_k s) = true /\ k_gin (r_k s) = GsHdr.
Proof. eexists. vm_compute. repeat split. Qed.
