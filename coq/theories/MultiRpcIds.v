(* Stream ids in the many-stream system of MultiRpc.v: new_stream frames reach the wire in strictly
   increasing id order, the serve loop sees them in that order, and the code's test
   "streamID <= lastSeen" coincides with the per-stream flag the components use. *)
From Coq Require Import List Bool Arith Lia.
From GT Require Import Lts RpcProofs MultiRpc MultiRpcProofs.
Import ListNotations.

Definition newsof (q : list (nat * cframe)) : list nat := map fst (filter (fun p => is_new (snd p)) q).

Lemma newsof_app a b : newsof (a ++ b) = newsof a ++ newsof b.
Proof. unfold newsof. rewrite filter_app, map_app. reflexivity. Qed.
Lemma newsof_tag_none i em : no_new em = true -> newsof (tag i em) = [].
Proof.
  induction em as [|f em IH]; cbn; auto. intros H.
  apply andb_true_iff in H. destruct H as [H1 H2]. destruct (is_new f); [discriminate|]. auto.
Qed.

Record idinv (n : nat) (m : mst) (c : nat) : Prop := {   (* c: the client's lastStreamID *)
  id_len : length (m_ps m) = n;
  id_c_le : c <= n;
  id_last_le : m_last m <= c;
  id_streams : forall j, j < n -> k_new (p_k (get m j)) = Nat.ltb j c /\ seen (p_v (get m j)) = Nat.ltb j (m_last m);
  id_hist : newsof (mh_c m) = seq 0 c;
  id_queue : newsof (mq_c m) = seq (m_last m) (c - m_last m)   (* the new_stream frames still queued: ids m_last .. c-1 *)
}.

Lemma idinv_init n : idinv n (m_init n) 0.
Proof. constructor; intros; rewrite ?get_init; cbn; auto using repeat_length; lia. Qed.

Lemma started_before_spec m j i : started_before m j = true -> i < j -> i < length (m_ps m) ->
  k_new (p_k (get m i)) = true.
Proof.
  unfold started_before, get. intros H Hij Hil. rewrite forallb_forall in H. apply H.
  rewrite <- (firstn_skipn j (m_ps m)) at 1.
  rewrite app_nth1 by (rewrite firstn_length; lia).
  apply nth_In. rewrite firstn_length. lia.
Qed.

Lemma ltb_S i c : (i <? S c) = (c =? i) || (i <? c).
Proof. destruct (Nat.eqb_spec c i), (Nat.ltb_spec i c), (Nat.ltb_spec i (S c)); lia. Qed.

(* a step that neither starts stream [j] nor lets the server see it, and moves no new_stream frame *)
Lemma idinv_other n m c j p' qc' qs' hc' hs' :
  idinv n m c -> j < n -> k_new (p_k p') = k_new (p_k (get m j)) -> seen (p_v p') = seen (p_v (get m j)) ->
  newsof qc' = newsof (mq_c m) -> newsof hc' = newsof (mh_c m) ->
  idinv n (mkM (upd (m_ps m) j p') qc' qs' hc' hs' (m_last m)) c.
Proof.
  intros [Hl Hc Hla Hst Hh Hq] Hj Hk Hv Hqc Hhc. rewrite <- Hl in Hj.
  constructor; cbn [m_ps mq_c mh_c m_last]; try congruence.
  - rewrite upd_length. exact Hl.
  - intros i Hi. rewrite get_upd by exact Hj. destruct (Nat.eqb_spec j i) as [<-|]; [rewrite Hk, Hv|]; auto.
Qed.

Lemma idinv_step strict n m c l m' : idinv n m c -> mstep strict m l = Some m' -> exists c', idinv n m' c'.
Proof.
  intros I H. pose proof I as [Hl Hc Hla Hst Hh Hq].
  destruct (mstep_cases _ _ _ _ H) as [j kl k' em qs' Hj Hks _ Hsb|j vl v' em qc' Hj Hvs Hqc];
    pose proof Hj as Hjn; rewrite Hl in Hjn.
  - destruct (kstep_ids _ _ _ _ Hks) as [(-> & Hk0 & Hk1 & ->)|[Hk Hem]].
    + (* newStream under the creation lock: every earlier stream is started, this one is not, so it is the next id *)
      assert (j = c) as ->.
      { apply Nat.le_antisymm.
        - apply Nat.nlt_ge. intros L. pose proof (started_before_spec m j c (Hsb eq_refl) L ltac:(lia)) as E.
          rewrite (proj1 (Hst c ltac:(lia))), Nat.ltb_irrefl in E. discriminate E.
        - apply Nat.ltb_ge. rewrite <- (proj1 (Hst j Hjn)). exact Hk0. }
      exists (S c).
      constructor; cbn [m_ps mq_c mh_c m_last]; rewrite ?upd_length; auto.
      * intros i Hi. rewrite get_upd by exact Hj. rewrite ltb_S. destruct (Hst i Hi) as [Hi1 Hi2].
        destruct (Nat.eqb_spec c i) as [<-|]; cbn; auto.
      * rewrite newsof_app, Hh. rewrite seq_S. reflexivity.
      * rewrite newsof_app, Hq. change (newsof (tag c [FNew])) with [c].
        replace (S c - m_last m) with (S (c - m_last m)) by lia.
        rewrite seq_S. f_equal. f_equal. lia.
    + exists c. apply idinv_other; auto; rewrite newsof_app, (newsof_tag_none _ _ Hem); apply app_nil_r.
  - pose proof (vstep_ids _ _ _ _ _ Hvs) as Hid. rewrite Hqc, newsof_app in Hq.
    destruct (no_new (vtakes vl)) eqn:Enew.
    + exists c. apply idinv_other; auto.
      * cbn [p_v]. rewrite Hid. apply orb_false_r.
      * rewrite Hqc, newsof_app, (newsof_tag_none _ _ Enew). reflexivity.
    + (* the serve loop takes new_stream: it is the next id the server expects *)
      destruct vl as [[] md| | | | | | | | | |]; try discriminate Enew. cbn in Hq, Hid. rewrite orb_true_r in Hid.
      destruct (c - m_last m) as [|d] eqn:Ed; [discriminate|]. injection Hq as -> Hr.
      replace (Nat.max (m_last m) (S (m_last m))) with (S (m_last m)) by lia.
      exists c. constructor; cbn [m_ps mq_c mh_c m_last]; rewrite ?upd_length; auto; try lia.
      * intros i Hi. rewrite get_upd by exact Hj. rewrite ltb_S. destruct (Hst i Hi) as [Hi1 Hi2].
        destruct (Nat.eqb_spec (m_last m) i) as [<-|]; cbn; auto.
      * rewrite Hr. replace (c - S (m_last m)) with d by lia. reflexivity.
Qed.

Theorem multi_ids n strict ls m : mrun strict (m_init n) ls = Some m -> exists c, idinv n m c.
Proof.
  apply (run_inv _ _ (mrun_runs strict) (fun m => exists c, idinv n m c)); [|eauto using idinv_init].
  intros m0 l m1 [c I]. eauto using idinv_step.
Qed.

(* C08: the new_stream frames are on the wire in strictly increasing id order, one per started RPC,
   whatever goroutines start RPCs and however everything else interleaves *)
Theorem multi_ids_increase_on_the_wire n strict ls m :
  mrun strict (m_init n) ls = Some m -> exists c, c <= n /\ newsof (mh_c m) = seq 0 c.
Proof.
  intros H. destruct (multi_ids _ _ _ _ H) as [c I]. exists c.
  split; [apply (id_c_le _ _ _ I) | apply (id_hist _ _ _ I)].
Qed.

(* ... and the serve loop's test "streamID <= lastSeen" is exactly "this stream's new_stream was seen" *)
Theorem multi_lastseen_exact n strict ls m j :
  mrun strict (m_init n) ls = Some m -> j < n -> seen (p_v (get m j)) = Nat.ltb j (m_last m).
Proof. intros H Hj. destruct (multi_ids _ _ _ _ H) as [c I]. apply (id_streams _ _ _ I). exact Hj. Qed.
