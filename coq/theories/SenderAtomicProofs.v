(* Proofs about the atomic-level sender: no lost wake-up under any interleaving; the
   sender never has more un-credited bytes outstanding than its window; chunk bounds. *)
From Coq Require Import List NArith Lia.
From GT Require Import Lts SenderAtomic.
Import ListNotations.
Local Open Scope N_scope.

Section P.
Variable cmax : N.
(* No proof below uses [0 < cmax]: with a zero chunk limit the sender spins on empty chunks, which
   these safety statements tolerate.  The theorems are stated with it and take it on with [Proof using]. *)
Hypothesis cmax_pos : 0 < cmax.
Notation step := (step cmax).
Notation run := (run cmax).

(* The sender parks only after loading a zero window, and the window only grows by an
   updateWindow call, which remembers the value it added to ([UAdded p]) and leaves a token
   when that was zero.  Nothing but the sender takes the token. *)
Definition Inv (s : sa) : Prop :=
  sp s = SWait -> 0 < win s -> tok s = true \/ up s = UAdded 0.

Lemma step_inv s l s' : Inv s -> step s l = Some s' -> Inv s'.
Proof.
  unfold Inv, SenderAtomic.step. intros H E.
  destruct l as [| | | | |a| |].
  (* the sender's five labels read [sp s], the updater's two read [up s] *)
  1-5: destruct (sp s) as [| |w|c|ok]; try discriminate E.
  6-7: destruct (up s) as [|prev] eqn:Eu; try discriminate E.
  - (* LLoad: parks only on a zero window *) injection E as <-.
    destruct (N.eqb_spec (win s) 0); cbn; [lia|discriminate].
  - (* LWaitTok *) destruct (tok s); [injection E as <-|]; discriminate.
  - (* LWaitCtx *) destruct (cancelled s); [injection E as <-|]; discriminate.
  - (* LCas *) injection E as <-. destruct (win s =? w); discriminate.
  - (* LEmit *) injection E as <-. destruct (c =? rem s); discriminate.
  - (* UAdd: remembers the window it found; zero is the case that needs a token *)
    destruct (a =? 0); injection E as <-; [rewrite Eu; exact H|]. intros Hsp _.
    destruct (N.eq_dec (win s) 0) as [->|Hw]; [right; reflexivity|left].
    assert (Hpos : 0 < win s) by lia. destruct (H Hsp Hpos) as [Ht|[=]]. exact Ht.
  - (* USignal: leaves the token if the add found zero *)
    injection E as <-. intros Hsp Hw. left.
    destruct (H Hsp Hw) as [Ht|[= ->]]; [|reflexivity]. destruct (prev =? 0); [reflexivity|exact Ht].
  - (* Cancel *) injection E as <-. exact H.
Qed.

Lemma run_runs : runs_of step run.
Proof. split; reflexivity. Qed.

(* under every interleaving: a sender parked in the wait while credit is available and no
   updateWindow call is in progress can take the wake-up token *)
Theorem never_stranded w0 msg ls s : w0 < M32 -> run (sa_init w0 msg) ls = Some s ->
  sp s = SWait -> 0 < win s -> up s = UIdle -> exists s', step s LWaitTok = Some s'.
(* [w0 < M32] is not used either: the invariant only asks whether the window is zero *)
Proof using cmax_pos.
  intros _ Hr Hsw Hp Hu.
  assert (H0 : Inv (sa_init w0 msg)) by discriminate.
  destruct (run_inv _ _ run_runs Inv step_inv ls _ _ H0 Hr Hsw Hp) as [Ht|Hc]; [|congruence].
  unfold SenderAtomic.step. rewrite Hsw, Ht. eauto.
Qed.

(* ... and a parked sender whose context ended can always leave *)
Theorem cancel_releases s : sp s = SWait -> cancelled s = true -> exists s', step s LWaitCtx = Some s'.
Proof. intros H1 H2. unfold SenderAtomic.step. rewrite H1, H2. eauto. Qed.

(* a sender that has taken the token reloads the window and, finding it positive, goes on to the
   compare-and-swap with the value it loaded *)
Lemma woken_sender_progresses s s1 : step s LWaitTok = Some s1 -> 0 < win s ->
  exists s2, step s1 LLoad = Some s2 /\ sp s2 = SCas (win s).
Proof using cmax_pos.
  unfold SenderAtomic.step. destruct (sp s); try discriminate. destruct (tok s); [|discriminate].
  intros [= <-] Hp. cbn [sp win].
  destruct (N.eqb_spec (win s) 0); [lia|]. eexists; split; reflexivity.
Qed.

(* a conforming peer only returns credit for bytes it has received *)
Definition conforming (s : sa) (l : lbl) : bool :=
  match l with UAdd a => credits s + a <=? emitted s | _ => true end.

Fixpoint run_conf (s : sa) (ls : list lbl) : option sa :=
  match ls with
  | [] => Some s
  | l :: r => if conforming s l then match step s l with Some s' => run_conf s' r | None => None end else None
  end.

Definition Acct (w0 : N) (s : sa) : Prop :=
  win s + reserved s + emitted s = w0 + credits s /\ credits s <= emitted s /\
  Forall (fun cf => fst cf <= cmax) (out s) /\
  reserved s <= cmax.

Definition conf_step (s : sa) (l : lbl) : option sa := if conforming s l then step s l else None.

Lemma run_conf_runs : runs_of conf_step run_conf.
Proof. split; [reflexivity|]. intros s l r. unfold conf_step. cbn. now destruct (conforming s l). Qed.

(* [w0 < M32]: the credited window never wraps, since it never exceeds [w0] *)
Lemma step_acct w0 s l s' : w0 < M32 -> Acct w0 s -> conf_step s l = Some s' -> Acct w0 s'.
Proof.
  unfold conf_step. intros Hw0 (A1 & A2 & A3 & A4) E. destruct (conforming s l) eqn:Hc; [|discriminate].
  unfold Acct, reserved, SenderAtomic.step in *.
  destruct l as [| | | | |a| |].
  (* the sender's five labels read [sp s], the updater's two read [up s] *)
  1-5: destruct (sp s) as [| |w|c|ok]; try discriminate E.
  6-7: destruct (up s) as [|prev]; try discriminate E.
  - (* LLoad *) injection E as <-. destruct (win s =? 0); auto.
  - (* LWaitTok *) destruct (tok s); [injection E as <-|discriminate]. auto.
  - (* LWaitCtx *) destruct (cancelled s); [injection E as <-|discriminate]. auto.
  - (* LCas: a successful compare-and-swap reserves the chunk out of the window *)
    injection E as <-. destruct (N.eqb_spec (win s) w); cbn; [|auto]. repeat split; (assumption || lia).
  - (* LEmit: hands the reserved chunk over *)
    injection E as <-. cbn. destruct (c =? rem s); repeat split; try lia;
      (apply Forall_app; split; [assumption|]; repeat constructor; exact A4).
  - (* UAdd: a conforming credit fits below w0 < 2^32, so the sum does not wrap *)
    destruct (a =? 0); injection E as <-; [auto|]. cbn. apply N.leb_le in Hc.
    rewrite N.mod_small by lia. repeat split; (assumption || lia).
  - (* USignal *) injection E as <-. auto.
  - (* Cancel *) injection E as <-. auto.
Qed.

Lemma run_conf_acct w0 ls s s' : w0 < M32 -> Acct w0 s -> run_conf s ls = Some s' -> Acct w0 s'.
Proof. intro Hw. apply (run_inv _ _ run_conf_runs). intros ? ? ?. now apply step_acct. Qed.

Lemma init_acct w0 msg : Acct w0 (sa_init w0 msg).
Proof. unfold Acct. cbn. repeat split; try lia. constructor. Qed.

(* for every interleaving with a conforming peer: bytes emitted and not yet credited never
   exceed the initial window; every chunk is at most cmax *)
Theorem window_respected w0 msg ls s : w0 < M32 -> run_conf (sa_init w0 msg) ls = Some s ->
  emitted s - credits s <= w0 /\ emitted s - credits s + win s + reserved s = w0 /\
  Forall (fun cf => fst cf <= cmax) (out s).
Proof using cmax_pos.
  intros Hw Hr. destruct (run_conf_acct w0 ls _ _ Hw (init_acct w0 msg) Hr) as (A1 & A2 & A3 & _).
  repeat split; try lia. assumption.
Qed.

(* once the peer has credited everything, the whole window is available again *)
Theorem window_restored w0 msg ls s : w0 < M32 -> run_conf (sa_init w0 msg) ls = Some s ->
  credits s = emitted s -> reserved s = 0 -> win s = w0.
Proof using cmax_pos.
  intros Hw Hr Hc Hres. destruct (run_conf_acct w0 ls _ _ Hw (init_acct w0 msg) Hr) as (A1 & _).
  lia.
Qed.

End P.
