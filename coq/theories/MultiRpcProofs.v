(* Every stream of every run of MultiRpc.v is a run of Rpc.v. *)
From Coq Require Import List Arith Lia.
From GT Require Import Lts RpcProofs RpcSystem MultiRpc.
Import ListNotations.

Lemma upd_length {A} (l : list A) i x : length (upd l i x) = length l.
Proof. revert i; induction l as [|y l IH]; intros [|i]; cbn; auto. Qed.
Lemma nth_upd {A} (l : list A) j x d : forall i, j < length l ->
  nth i (upd l j x) d = if Nat.eqb j i then x else nth i l d.
Proof. revert j; induction l as [|y l IH]; intros [|j] [|i] H; cbn in *; try lia; auto. apply IH. lia. Qed.

Lemma proj_app {A} i (a b : list (nat * A)) : proj i (a ++ b) = proj i a ++ proj i b.
Proof. unfold proj. rewrite filter_app, map_app. reflexivity. Qed.
(* what stream [i] sees of the frames of stream [j] *)
Lemma proj_tag {A} i j (em : list A) : proj i (tag j em) = if Nat.eqb j i then em else [].
Proof. unfold proj, tag. induction em as [|e em IH]; cbn; destruct (Nat.eqb j i); cbn; congruence. Qed.
Lemma proj_cons {A} i j (f : A) r : proj i ((j, f) :: r) = (if Nat.eqb j i then [f] else []) ++ proj i r.
Proof. cbn. now destruct (Nat.eqb j i). Qed.

(* a step of the many-stream system is a step of one component of one stream [j], with the plumbing
   of Rpc.rstep on the tagged queues; the creation lock hands out ids in order *)
Inductive mstep_of (strict : bool) (m : mst) : mst -> Prop :=
| MStepK j kl k' em qs' :
    j < length (m_ps m) -> kstep (p_k (get m j)) kl = Some (k', em) -> mq_s m = tag j (ktakes kl) ++ qs' ->
    (kl = CNew -> started_before m j = true) ->
    mstep_of strict m (mkM (upd (m_ps m) j (mkPs k' (p_v (get m j)) (p_n (get m j)))) (mq_c m ++ tag j em) qs'
                           (mh_c m ++ tag j em) (mh_s m) (m_last m))
| MStepV j vl v' em qc' :
    j < length (m_ps m) -> vstep strict (p_v (get m j)) vl = Some (v', em) -> mq_c m = tag j (vtakes vl) ++ qc' ->
    mstep_of strict m (mkM (upd (m_ps m) j (mkPs (p_k (get m j)) v' (p_n (get m j) + invoked (p_v (get m j)) v')))
                           qc' (mq_s m ++ tag j em) (mh_c m) (mh_s m ++ tag j em)
                           (if no_new (vtakes vl) then m_last m else Nat.max (m_last m) (S j))).

Lemma mstep_cases strict m l m' : mstep strict m l = Some m' -> mstep_of strict m m'.
Proof.
  intros H. destruct l as [j l|bad|j l|md]; cbn [mstep] in H.
  - (* the creation lock's test [started_before] is there for CNew only *)
    destruct l; destruct (Nat.ltb_spec j (length (m_ps m))) as [Hj|]; try discriminate;
      try (destruct (started_before m j) eqn:Hsb; [|discriminate]; cbn [negb] in H);
      destruct (kstep _ _) as [[k' em]|] eqn:Hs; inversion H;
      (eapply MStepK; [exact Hj|exact Hs|reflexivity|]); (discriminate || auto).
  - destruct (mq_s m) as [|[j f] r] eqn:Hq; [discriminate|].
    destruct (Nat.ltb_spec j (length (m_ps m))) as [Hj|]; [|discriminate].
    destruct (kstep _ _) as [[k' em]|] eqn:Hs; inversion H. apply (MStepK _ _ _ (CLoop f bad)); auto. discriminate.
  - destruct l; destruct (Nat.ltb_spec j (length (m_ps m))) as [Hj|]; try discriminate;
      destruct (vstep _ _ _) as [[v' em]|] eqn:Hs; inversion H; apply (MStepV _ _ _ _ _ _ (mq_c m) Hj Hs eq_refl).
  - destruct (mq_c m) as [|[j f] r] eqn:Hq; [discriminate|].
    destruct (Nat.ltb_spec j (length (m_ps m))) as [Hj|]; [|discriminate].
    destruct (vstep _ _ _) as [[v' em]|] eqn:Hs; [|discriminate]. injection H as <-.
    destruct f; apply (MStepV _ _ _ (SLoop _ md) _ _ r Hj Hs Hq).
Qed.

Lemma mstep_length strict m l m' : mstep strict m l = Some m' -> length (m_ps m') = length (m_ps m).
Proof. intros H. destruct (mstep_cases _ _ _ _ H); apply upd_length. Qed.

Lemma get_upd m j x qc qs hc hs la i : j < length (m_ps m) ->
  get (mkM (upd (m_ps m) j x) qc qs hc hs la) i = if Nat.eqb j i then x else get m i.
Proof. apply nth_upd. Qed.

(* one step of the many-stream system is, for stream i, either invisible or one step of Rpc.v *)
Lemma mstep_proj strict m l m' i :
  mstep strict m l = Some m' ->
  proj_state i m' = proj_state i m \/ exists l', rstep strict (proj_state i m) l' = Some (proj_state i m').
Proof.
  intros H. unfold proj_state.
  destruct (mstep_cases _ _ _ _ H) as [j kl k' em qs' Hj Hs Hq _|j vl v' em qc' Hj Hs Hq];
    apply (f_equal (proj i)) in Hq; rewrite proj_app in Hq;
    rewrite get_upd by exact Hj; cbn [mq_c mq_s mh_c mh_s]; rewrite !proj_app, !proj_tag in *;
    destruct (Nat.eqb_spec j i) as [->|Hne].
  - (* a client step of this stream *)
    right. apply rstep_of_step. apply (RStepK _ (proj_state i m) kl); [exact Hs|exact Hq].
  - (* ... of another stream: what it emits and what its loop takes are not this stream's *)
    left. rewrite Hq, !app_nil_r. reflexivity.
  - (* a server step of this stream *)
    right. apply rstep_of_step. apply (RStepV _ (proj_state i m) vl); [exact Hs|exact Hq].
  - left. rewrite Hq, !app_nil_r. reflexivity.
Qed.

Lemma mrun_runs strict : runs_of (mstep strict) (mrun strict).
Proof. split; reflexivity. Qed.

Lemma get_init n j : get (m_init n) j = p_init.
Proof. apply nth_repeat. Qed.
Lemma proj_init n i : proj_state i (m_init n) = r_init.
Proof. unfold proj_state. rewrite get_init. reflexivity. Qed.

(* C03 (control level): however the RPCs of a tunnel interleave, each of them runs as if it were alone *)
Theorem multi_rpc_refines strict n ls m i :
  mrun strict (m_init n) ls = Some m -> i < n ->
  exists ls', rrun strict r_init ls' = Some (proj_state i m).
Proof.
  (* [i < n] is not used: a stream beyond the last never moves *)
  intros Hrun _. rewrite <- (proj_init n i).
  refine (proj2 (run_refines (mstep strict) (mrun strict) (rstep strict) (rrun strict) (fun _ => True)
                   (proj_state i) (mrun_runs strict) (rrun_runs strict) _ ls (m_init n) m I Hrun)).
  intros m0 l m1 _ E. split; [exact I|]. exact (mstep_proj strict m0 l m1 i E).
Qed.

(* ... so everything proved about one RPC holds for each RPC of the tunnel *)
Section PerStream.
Variable strict : bool.
Variables (n : nat) (ls : list mlbl) (m : mst) (i : nat).
Hypothesis Hrun : mrun strict (m_init n) ls = Some m.
Hypothesis Hi : i < n.

Theorem multi_no_rpc_ends_the_tunnel : k_err (p_k (get m i)) = false /\ v_err (p_v (get m i)) = false.
Proof. destruct (multi_rpc_refines _ _ _ _ _ Hrun Hi) as [ls' H]. exact (rpc_tunnel_survives _ _ _ H). Qed.

Theorem multi_streams_conform :
  gc_run (proj i (mh_c m)) <> GcBad /\ gs_run (proj i (mh_s m)) <> GsBad /\ count_close (proj i (mh_s m)) <= 1.
Proof.
  destruct (multi_rpc_refines _ _ _ _ _ Hrun Hi) as [ls' H]. repeat split.
  - exact (rpc_client_frames_conform _ _ _ H).
  - exact (rpc_server_frames_conform _ _ _ H).
  - exact (rpc_at_most_one_close _ _ _ H).
Qed.

Theorem multi_one_invocation_each : p_n (get m i) <= 1.
Proof. destruct (multi_rpc_refines _ _ _ _ _ Hrun Hi) as [ls' H]. exact (proj1 (rpc_at_most_one_invocation _ _ _ H)). Qed.

Theorem multi_tables_clean :
  (k_done (p_k (get m i)) <> None -> c_quiet (p_k (get m i)) = true -> k_tab (p_k (get m i)) = false) /\
  (v_closed (p_v (get m i)) = true -> v_tab (p_v (get m i)) = false).
Proof.
  destruct (multi_rpc_refines _ _ _ _ _ Hrun Hi) as [ls' H].
  destruct (rpc_tables_clean _ _ _ H) as (A & _ & _ & D). split; [exact A | exact D].
Qed.
End PerStream.

(* non-vacuity: two RPCs whose steps interleave on the shared queues - the second is refused while the
   first is served; each projection is a run of Rpc.v, and the frames of the two never mix *)
Definition two_rpc_run : list mlbl :=
  [MK 0 CNew; MK 1 CNew; MK 1 CSend; MK 0 CSend; MVLoop LNormal; MVLoop LReject; MV 1 SRejGo; MVLoop LNormal;
   MV 0 HSend; MKLoop false; MVLoop LNormal; MKLoop false; MV 0 HReturn; MV 0 SFinH; MV 0 SFinH; MV 0 SFinH; MV 0 SCloseGo].
Example two_rpc_run_ok :
  exists m, mrun true (m_init 2) two_rpc_run = Some m /\
            proj 0 (mh_c m) = [FNew; FReq] /\ proj 1 (mh_c m) = [FNew; FReq] /\
            proj 0 (mh_s m) = [FHdr; FResp; FClose] /\ proj 1 (mh_s m) = [FClose] /\
            p_n (get m 0) = 1 /\ p_n (get m 1) = 0 /\ m_last m = 2.
Proof. eexists. vm_compute. repeat split. Qed.
(* the creation lock: the second id cannot be started before the first *)
Example ids_in_order : mstep true (m_init 2) (MK 1 CNew) = None.
Proof. reflexivity. Qed.
