(* What the properties state about constants, checked against the values read from the
   Go source on this run (gen/Params.v). *)
From Coq Require Import List ZArith.
From GTgen Require Import Params.
Import ListNotations.

Lemma chunk_max_is_16KiB : chunk_max = 16384%N.            Proof. reflexivity. Qed.
Lemma init_window_is_64KiB : init_window = 65536%N.        Proof. reflexivity. Qed.
Lemma chunk_max_pos : (0 < chunk_max)%N.                   Proof. reflexivity. Qed.
Lemma window_fits_uint32 : (init_window < 4294967296)%N.   Proof. reflexivity. Qed.
Lemma settings_id_is_minus_one : settings_stream_id = (-1)%Z.  Proof. reflexivity. Qed.
Lemma last_seen_starts_below_zero : last_seen0 = (-1)%Z.   Proof. reflexivity. Qed.
Lemma negotiate_header :
  negotiate_key = [103; 114; 112; 99; 116; 117; 110; 110; 101; 108; 45; 110; 101; 103; 111; 116; 105; 97; 116; 101]%N /\
  negotiate_val = [111; 110]%N.
Proof. split; reflexivity. Qed.
(* stream-level rejections of createStream: shutting down and unsupported revision are
   Unavailable (14), malformed name InvalidArgument (3), unknown method Unimplemented (12) *)
Lemma rejection_codes : create_rejection_codes = [14; 14; 3; 12]%N.
Proof. reflexivity. Qed.
