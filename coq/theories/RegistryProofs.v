From Coq Require Import List NArith Arith Lia Permutation.
From GT Require Import Lts Registry.
Import ListNotations.

Lemma rc_ready_nonempty c : rc_ready c = true <-> chans c <> [].
Proof. unfold rc_ready. destruct (chans c); cbn; split; congruence. Qed.

Definition latch_ok (c : rc) : Prop := avail_closed c = rc_ready c.

Inductive rc_op := CAdd (t k : N) | CRemove (t : N) | CPick.
Definition rc_apply (c : rc) (o : rc_op) : rc :=
  match o with CAdd t k => rc_add c t k | CRemove t => fst (rc_remove c t) | CPick => fst (rc_pick c) end.

Lemma apply_latch c o : latch_ok c -> latch_ok (rc_apply c o).
Proof.
  unfold latch_ok, rc_ready. intro H. destruct o as [t k|t|]; cbn [rc_apply].
  - (* an addition closes the latch on the first element and keeps it otherwise; the lengths compute once
       the list is known up to its second element *)
    unfold rc_add. destruct (chans c) as [|x [|y l]]; auto.
  - (* a removal succeeds only on a non-empty list, whose latch was closed *)
    unfold rc_remove. destruct (remove_first t (chans c)) as [[k l']|] eqn:E; [|exact H].
    destruct (chans c); [discriminate E|]. destruct l'; auto.
  - unfold rc_pick. destruct (chans c) eqn:E; cbn; rewrite ?E; auto.
Qed.

(* Ready / WaitForReady reflect whether the set is non-empty, after every history *)
Theorem latch_always (ops : list rc_op) :
  let c := fold_left rc_apply ops rc_new in
  avail_closed c = rc_ready c /\ (rc_ready c = true <-> rc_all c <> []).
Proof.
  split.
  - apply (fold_left_inv rc_apply latch_ok); [|reflexivity].
    intros c o _. apply apply_latch.
  - rewrite rc_ready_nonempty. unfold rc_all. destruct (chans _); cbn; split; congruence.
Qed.

Definition next (n i : nat) : nat := if n <=? S i then 0 else S i.

Lemma next_lt n i : 0 < n -> next n i < n.
Proof. unfold next. intro. destruct (Nat.leb_spec n (S i)); lia. Qed.

Lemma rc_pick_eq c : chans c <> [] ->
  rc_pick c = (mkRc (chans c) (next (length (chans c)) (idx c)) (avail_closed c) (avail_gen c),
               option_map fst (nth_error (chans c) (next (length (chans c)) (idx c)))).
Proof.
  intro Hne. unfold rc_pick. destruct (chans c) as [|x l]; [congruence|].
  destruct (nth_error _ _) as [[t kk]|]; reflexivity.
Qed.

(* a pick returns a registered tunnel, and none only when there is none *)
Theorem pick_member c c' p : rc_pick c = (c', p) ->
  chans c' = chans c /\
  match p with Some t => In t (rc_all c) | None => chans c = [] end.
Proof.
  destruct (chans c) as [|x l] eqn:E.
  - unfold rc_pick. rewrite E. intros [= <- <-]. auto.
  - rewrite <- E. assert (Hne : chans c <> []) by congruence.
    rewrite (rc_pick_eq c Hne). intros [= <- <-]. split; [reflexivity|].
    destruct (nth_error (chans c) _) as [tk|] eqn:En.
    + apply nth_error_In in En. apply in_map, En.
    + apply nth_error_None in En. pose proof (next_lt (length (chans c)) (idx c)) as Hlt.
      destruct (chans c); [congruence|cbn [length] in *; lia].
Qed.

(* the cursor positions of k successive picks over n tunnels *)
Fixpoint idxs (n : nat) (i : nat) (k : nat) : list nat :=
  match k with O => [] | S k' => next n i :: idxs n (next n i) k' end.

Lemma rc_picks_idxs k : forall c, chans c <> [] ->
  snd (rc_picks k c) = map (fun i => option_map fst (nth_error (chans c) i)) (idxs (length (chans c)) (idx c) k).
Proof.
  induction k as [|k IH]; intros c Hne; [reflexivity|].
  cbn [rc_picks idxs map]. rewrite (rc_pick_eq c Hne).
  specialize (IH (mkRc (chans c) (next (length (chans c)) (idx c)) (avail_closed c) (avail_gen c)) Hne).
  destruct (rc_picks k _) as [c2 ps]. cbn [snd chans idx] in *. now rewrite IH.
Qed.

Lemma idxs_run n k : forall i m, S i + k <= n -> idxs n i (k + m) = seq (S i) k ++ idxs n (i + k) m.
Proof.
  induction k as [|k IH]; intros i m H; cbn [Nat.add idxs seq app].
  - now rewrite Nat.add_0_r.
  - unfold next at 1 2. destruct (Nat.leb_spec n (S i)); [lia|].
    rewrite IH by lia. now rewrite Nat.add_succ_r.
Qed.

Lemma idxs_wrap n i k : n <= S i -> k <= n -> idxs n i k = seq 0 k.
Proof.
  intros Hi Hk. destruct k as [|k]; [reflexivity|]. cbn [idxs seq]. unfold next.
  destruct (Nat.leb_spec n (S i)); [|lia]. f_equal.
  rewrite <- (Nat.add_0_r k) at 1. (* idxs_run with m = 0 *) rewrite idxs_run by lia. apply app_nil_r.
Qed.

(* n picks: up to the end of the list, then from its start up to the cursor *)
Lemma idxs_round n i : Permutation (idxs n i n) (seq 0 n).
Proof.
  destruct (Nat.leb_spec n (S i)); [now rewrite idxs_wrap|].
  replace n with ((n - S i) + S i) at 2 by lia. rewrite idxs_run, idxs_wrap by lia.
  rewrite Permutation_app_comm. rewrite <- seq_app.
  now replace (S i + (n - S i)) with n by lia.
Qed.

Lemma map_nth_error_seq {X} (l : list X) : map (nth_error l) (seq 0 (length l)) = map Some l.
Proof.
  induction l as [|a l IH]; [reflexivity|].
  cbn [length seq map nth_error]. f_equal. rewrite <- seq_shift, map_map. exact IH.
Qed.

(* with a stable set of n tunnels, any n consecutive picks (from any cursor position, also
   one left out of range by earlier removals) use each tunnel exactly once *)
Theorem round_robin c : chans c <> [] ->
  Permutation (snd (rc_picks (length (chans c)) c)) (map Some (rc_all c)).
Proof.
  intro Hne. rewrite (rc_picks_idxs _ c Hne), idxs_round.
  unfold rc_all. now rewrite <- map_map, map_nth_error_seq, !map_map.
Qed.

Definition open_apply (o : list (N * N)) (op : reg_op) : list (N * N) :=
  match op with
  | ROpen t k => o ++ [(t, k)]
  | RClose t => match remove_first t o with Some (_, o') => o' | None => o end
  | _ => o
  end.

Definition keyed (k : N) (o : list (N * N)) : list (N * N) := filter (fun tk => N.eqb (snd tk) k) o.

Lemma remove_first_notin t l : ~ In t (map fst l) -> remove_first t l = None.
Proof.
  induction l as [|[t' k'] l IH]; cbn [remove_first map fst]; intro H; [reflexivity|].
  destruct (N.eqb_spec t' t) as [->|Hne]; [exfalso; apply H; left; reflexivity|].
  rewrite IH; [reflexivity|]. intro; apply H; right; assumption.
Qed.

Definition del (t : N) (l : list (N * N)) : list (N * N) :=
  match remove_first t l with Some (_, l') => l' | None => l end.

Lemma rc_remove_chans c t : chans (fst (rc_remove c t)) = del t (chans c).
Proof.
  unfold rc_remove, del. destruct (remove_first t (chans c)) as [[k []]|]; reflexivity.
Qed.

(* removing a tunnel from the whole list removes it from the list of its key (found there at
   its first occurrence too) and leaves the lists of the other keys alone *)
Lemma remove_first_keyed t k' o : forall k o', remove_first t o = Some (k, o') ->
  keyed k' o' = if N.eqb k k' then del t (keyed k' o) else keyed k' o.
Proof.
  induction o as [|[t0 k0] o IH]; cbn [remove_first]; [discriminate|].
  destruct (N.eqb_spec t0 t) as [->|Hne].
  - intros k o' [= <- <-]. unfold keyed, del. cbn [filter snd].
    destruct (N.eqb k0 k'); [|reflexivity]. cbn [remove_first]. now rewrite N.eqb_refl.
  - destruct (remove_first t o) as [[k1 o1]|]; [|discriminate].
    intros k o' [= <- <-]. specialize (IH _ _ eq_refl). unfold keyed, del in *. cbn [filter snd].
    destruct (N.eqb k0 k'); [|exact IH]. rewrite IH. cbn [remove_first].
    destruct (N.eqb_spec t0 t) as [|_]; [contradiction|].
    destruct (N.eqb k1 k'); [|reflexivity]. now destruct (remove_first t _) as [[]|].
Qed.

Definition kchans (r : reg) (k : N) : list (N * N) :=
  match key_get k (bykey r) with Some c => chans c | None => [] end.

Definition RegInv (r : reg) (o : list (N * N)) : Prop :=
  chans (glob r) = o /\ forall k, kchans r k = keyed k o.

Lemma key_get_set k k' c m : key_get k' (key_set k c m) = if N.eqb k k' then Some c else key_get k' m.
Proof.
  induction m as [|[k0 c0] m IH]; cbn [key_set key_get]; [now destruct (N.eqb k k')|].
  destruct (N.eqb_spec k0 k) as [->|H0]; cbn [key_get]; [now destruct (N.eqb k k')|].
  destruct (N.eqb_spec k0 k'), (N.eqb_spec k k'); congruence.
Qed.

(* an operation that changes the list of one key by [f] keeps the per-key lists in step with an open
   list whose part under that key changes by [f] and whose other parts stay *)
Lemma keys_update f r g' k c' o o' :
  (forall k', kchans r k' = keyed k' o) ->
  chans c' = f (kchans r k) ->
  (forall k', keyed k' o' = if N.eqb k k' then f (keyed k' o) else keyed k' o) ->
  forall k', kchans (mkReg g' (key_set k c' (bykey r))) k' = keyed k' o'.
Proof.
  intros Hk Hc Ho k'. rewrite Ho. unfold kchans at 1. cbn [bykey]. rewrite key_get_set.
  destruct (N.eqb_spec k k') as [<-|]; [now rewrite Hc, Hk|apply Hk].
Qed.

Lemma reg_step_inv r o op : RegInv r o -> RegInv (reg_apply r op) (open_apply o op).
Proof.
  intros [<- Hk]. destruct op as [t k|t| |k]; cbn [reg_apply open_apply].
  - split; [reflexivity|]. eapply (keys_update (fun l => l ++ [(t, k)])); [exact Hk| |].
    + unfold kchans. now destruct (key_get k (bykey r)).
    + intro k'. unfold keyed. rewrite filter_app. cbn. destruct (N.eqb k k'); [reflexivity|apply app_nil_r].
  - unfold reg_close. unfold rc_remove at 1.
    destruct (remove_first t (chans (glob r))) as [[k o']|] eqn:E; [|now split].
    pose proof (fun k' => remove_first_keyed t k' _ k o' E) as Hd.
    destruct (key_get k (bykey r)) as [c|] eqn:Ek; (split; [now destruct o'|]).
    + eapply (keys_update (del t)); [exact Hk| |exact Hd].
      rewrite rc_remove_chans. unfold kchans. now rewrite Ek.
    + (* no list under the key: nothing to remove there *)
      intro k'. rewrite Hd, <- !Hk. destruct (N.eqb_spec k k') as [<-|]; [|reflexivity].
      unfold kchans. cbn [bykey]. now rewrite Ek.
  - unfold reg_pick. destruct (rc_pick (glob r)) as [g' p] eqn:E. apply pick_member in E as [E _]. now split.
  - unfold reg_pick_key. destruct (key_get k (bykey r)) as [c|] eqn:Ek; [|now split].
    destruct (rc_pick c) as [c' p] eqn:E. apply pick_member in E as [E _]. split; [reflexivity|].
    eapply (keys_update (fun l => l)); [exact Hk| |intro k'; now destruct (N.eqb k k')].
    unfold kchans. now rewrite Ek.
Qed.

(* after every history the two-level registry holds exactly the open tunnels, globally and per
   key: no assumption on the history is needed *)
Lemma registry_tracks_open_tunnels ops :
  RegInv (fold_left reg_apply ops reg_new) (fold_left open_apply ops []).
Proof. apply fold_left_inv2; [exact reg_step_inv|]. split; reflexivity. Qed.

(* well-formed histories: a tunnel object is registered once (ROpen only for a tunnel that is
   not currently open); closes and picks are unconstrained *)
Fixpoint wf_history (o : list (N * N)) (ops : list reg_op) : Prop :=
  match ops with
  | [] => True
  | op :: r => (match op with ROpen t _ => ~ In t (map fst o) | _ => True end) /\ wf_history (open_apply o op) r
  end.

(* after every such history the tunnels reachable through the handler are exactly the open
   ones: globally, and per affinity key *)
Theorem registry_matches_open_tunnels ops : wf_history [] ops ->
  let r := fold_left reg_apply ops reg_new in
  let o := fold_left open_apply ops [] in
  rc_all (glob r) = map fst o /\
  forall k, reg_key_all r k = map fst (keyed k o) /\ (reg_key_ready r k = true <-> keyed k o <> []).
Proof.
  intros _. destruct (registry_tracks_open_tunnels ops) as [Hg Hk].
  split; [unfold rc_all; now rewrite Hg|]. intro k. rewrite <- Hk.
  unfold reg_key_all, reg_key_ready, kchans. destruct (key_get k _) as [c|].
  - split; [reflexivity|apply rc_ready_nonempty].
  - split; [reflexivity|]. split; [discriminate|congruence].
Qed.
