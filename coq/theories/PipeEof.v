(* End of stream on top of Pipe.v: the sending application half-closes after its last message;
   the half-close travels behind the data frames on the same carrier, enters the receiver queue
   behind the frames queued there, and the reading application sees end-of-stream when it
   reaches it.  The position of the marker is kept as the number of data frames still ahead of
   it.  Theorems: the reader is told "end of stream" only after it has obtained every message
   that was submitted (C01: complete whenever that side is told the RPC ended normally), under
   every interleaving of all parties. *)
From Coq Require Import List Lia.
From GT Require Import Lts FramesProofs Pipe PipeProofs.
Import ListNotations.
Set Implicit Arguments.

Section E.
Variable A : Type.
Variables cmax W : nat.

Inductive epos := ENotSent | EInWire (ahead : nat) | EInQueue (ahead : nat) | ESeen.

Record est := mkE { e_p : pst A; e_half : epos }.

Definition e_init : est := mkE (p_init A W) ENotSent.

Inductive elbl :=
| EData (l : plbl A)      (* any step of the data pipeline *)
| EHalfClose              (* the sending application closes its side (no message in progress) *)
| EDeliverHalf            (* the receive loop takes the half-close from the carrier *)
| EReadEof.               (* the reading application reaches the marker *)

Definition estep (s : est) (l : elbl) : option est :=
  match l with
  | EData dl =>
      (* after the half-close nothing more may be submitted *)
      match dl, e_half s with
      | PSubmit _, ENotSent => match pstep cmax (e_p s) dl with Some p' => Some (mkE p' (e_half s)) | None => None end
      | PSubmit _, _ => None
      | PDeliver, EInWire k =>
          (* a data frame ahead of the marker is delivered *)
          match k with
          | O => None          (* the marker is at the head of the carrier: EDeliverHalf comes first *)
          | S k' => match pstep cmax (e_p s) PDeliver with Some p' => Some (mkE p' (EInWire k')) | None => None end
          end
      | PDequeue, EInQueue k =>
          match k with
          | O => None
          | S k' => match pstep cmax (e_p s) PDequeue with Some p' => Some (mkE p' (EInQueue k')) | None => None end
          end
      | _, _ => match pstep cmax (e_p s) dl with Some p' => Some (mkE p' (e_half s)) | None => None end
      end
  | EHalfClose =>
      match e_half s, p_cur (e_p s) with
      | ENotSent, None => Some (mkE (e_p s) (EInWire (length (p_wire (e_p s)))))
      | _, _ => None
      end
  | EDeliverHalf =>
      match e_half s with
      | EInWire O => Some (mkE (e_p s) (EInQueue (length (p_rq (e_p s)))))
      | _ => None
      end
  | EReadEof =>
      match e_half s with
      | EInQueue O => Some (mkE (e_p s) ESeen)
      | _ => None
      end
  end.

Fixpoint erun (s : est) (ls : list elbl) : option est :=
  match ls with
  | [] => Some s
  | l :: r => match estep s l with Some s' => erun s' r | None => None end
  end.

Definition data_labels (ls : list elbl) : list (plbl A) :=
  flat_map (fun l => match l with EData dl => [dl] | _ => [] end) ls.

(* what a data step does to the marker; [None]: the marker's rules refuse the step *)
Definition move (dl : plbl A) (h : epos) : option epos :=
  match dl, h with
  | PSubmit _, ENotSent => Some h
  | PSubmit _, _ => None
  | PDeliver, EInWire k => match k with O => None | S k' => Some (EInWire k') end
  | PDequeue, EInQueue k => match k with O => None | S k' => Some (EInQueue k') end
  | _, _ => Some h
  end.

Lemma estep_data s dl :
  estep s (EData dl) = match move dl (e_half s), pstep cmax (e_p s) dl with
                       | Some h', Some p' => Some (mkE p' h') | _, _ => None end.
Proof. cbn [estep]. destruct dl, (e_half s) as [|[|k]|[|k]|]; cbn [move]; reflexivity. Qed.

(* once the marker is out, nothing is being sent, and the marker's position is exact *)
Definition Pos (p : pst A) (h : epos) : Prop :=
  match h with
  | ENotSent => True
  | EInWire k => p_cur p = None /\ length (p_wire p) = k
  | EInQueue k => p_cur p = None /\ length (p_wire p) = 0 /\ length (p_rq p) = k
  | ESeen => p_cur p = None /\ length (p_wire p) = 0 /\ length (p_rq p) = 0
  end.
Definition EInv (s : est) : Prop := Pos (e_p s) (e_half s).

(* data moves towards the reader, and so does the marker: every case is arithmetic on the two lengths *)
Lemma move_pos p dl p' h h' : pstep cmax p dl = Some p' -> move dl h = Some h' -> Pos p h -> Pos p' h'.
Proof.
  unfold Pos. intros [E _]%pstep_effect Hm Hp. destruct dl.
  - (* PSubmit: refused once the marker is out *) destruct h; now inversion Hm.
  - (* PChunk: nothing is being sent once the marker is out *)
    injection Hm as <-. destruct h; [exact I|now destruct E, Hp..].
  - (* PDeliver *) destruct E as (-> & f & Ew & _). rewrite Ew in Hp. cbn [length] in Hp.
    destruct h as [|[|k]|k|]; try discriminate Hm; injection Hm as <-; intuition lia.
  - (* PDequeue *) destruct E as (-> & -> & f & Eq). rewrite Eq in Hp. cbn [length] in Hp.
    destruct h as [|k|[|k]|]; try discriminate Hm; injection Hm as <-; intuition lia.
  - (* PCredit *) destruct E as (-> & -> & ->). injection Hm as <-. exact Hp.
Qed.

Lemma estep_refines s l s' : EInv s -> estep s l = Some s' ->
  EInv s' /\ (e_p s' = e_p s \/ exists dl, pstep cmax (e_p s) dl = Some (e_p s')).
Proof.
  unfold EInv. intros Hi H. destruct l as [dl| | |]; [rewrite estep_data in H|cbn [estep] in H..].
  - destruct (move dl (e_half s)) as [h'|] eqn:Hm; [|discriminate].
    destruct (pstep cmax (e_p s) dl) as [p'|] eqn:E; [|discriminate]. injection H as <-.
    split; [eapply move_pos; eassumption|right; now exists dl].
  - (* EHalfClose *) destruct (e_half s); try discriminate. destruct (p_cur (e_p s)) eqn:Ec; [discriminate|].
    injection H as <-. split; [cbn; auto|now left].
  - (* EDeliverHalf *) destruct (e_half s) as [|[|k]|k|]; try discriminate. injection H as <-.
    destruct Hi as [Hc Hk]. split; [cbn; auto|now left].
  - (* EReadEof *) destruct (e_half s) as [|k|[|k]|]; try discriminate. injection H as <-.
    split; [cbn; auto|now left].
Qed.

Lemma erun_inv ls s : erun e_init ls = Some s -> EInv s /\ exists pls, prun cmax (p_init A W) pls = Some (e_p s).
Proof.
  refine (run_refines estep erun (pstep cmax) (prun cmax) EInv e_p _ (prun_runs A cmax) estep_refines ls e_init s I).
  split; reflexivity.
Qed.

Theorem eof_only_after_everything ls s : erun e_init ls = Some s ->
  e_half s = ESeen -> p_delivered (e_p s) = p_submitted (e_p s).
Proof.
  intros [Hi [pls Hp]]%erun_inv Hs. unfold EInv in Hi. rewrite Hs in Hi.
  destruct Hi as (Hc & Hw%length_zero_iff_nil & Hq%length_zero_iff_nil).
  exact (system_complete_when_drained _ _ _ Hp Hc Hw Hq).
Qed.

(* and before that, what it has is a prefix *)
Theorem eof_run_prefix ls s : erun e_init ls = Some s ->
  prefix (p_delivered (e_p s)) (p_submitted (e_p s)).
Proof. intros [_ [pls Hp]]%erun_inv. exact (system_delivered_prefix _ _ _ Hp). Qed.

(* the marker cannot overtake: while a data frame is ahead of it, end-of-stream is not readable *)
Theorem eof_not_before_queued_data ls s : erun e_init ls = Some s ->
  (p_wire (e_p s) <> [] \/ p_rq (e_p s) <> []) -> estep s EReadEof = None.
Proof.
  intros [Hi _]%erun_inv Hne. unfold EInv in Hi. cbn [estep].
  destruct (e_half s) as [|k|[|k]|]; try reflexivity.
  destruct Hi as (_ & Hw%length_zero_iff_nil & Hq%length_zero_iff_nil).
  now destruct Hne.
Qed.

End E.

Arguments EHalfClose {A}.
Arguments EDeliverHalf {A}.
Arguments EReadEof {A}.

Example eof_run_reaches_the_end :
  match erun 2 (e_init nat 8) [EData (PSubmit [1;2;3]); EData PChunk; EData PChunk; EHalfClose;
                               EData PDeliver; EData PDeliver; EDeliverHalf; EData PDequeue; EData PDequeue; EReadEof] with
  | Some s => e_half s = ESeen /\ p_delivered (e_p s) = [[1;2;3]]
  | None => False
  end.
Proof. vm_compute. split; reflexivity. Qed.
