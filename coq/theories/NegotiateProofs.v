From Coq Require Import List ZArith Bool Lia.
From GTgen Require Import Params.
From GT Require Import Negotiate.
Import ListNotations.
Local Open Scope Z_scope.

Lemma in_slice_In x l : in_slice x l = true <-> In x l.
Proof.
  unfold in_slice. rewrite existsb_exists. setoid_rewrite Z.eqb_eq.
  split; [intros (y & H & ->); exact H | eauto].
Qed.

Definition common (mine l : list Z) : list Z := filter (fun r => in_slice r mine) l.

(* the selection loop computes the maximum of the common revisions *)
Lemma choose_fold_eq mine l : forall use ok,
  fold_left (choose_step mine) l (use, ok) =
  (fold_left Z.max (common mine l) use,
   (ok || match common mine l with [] => false | _ => true end)%bool).
Proof.
  induction l as [|t l IH]; intros use ok; cbn [fold_left common filter].
  - now rewrite orb_false_r.
  - unfold choose_step at 2. cbn [fst]. destruct (in_slice t mine).
    + rewrite IH.
      replace (if t >? use then t else use) with (Z.max use t) by (destruct (t >? use) eqn:E'; lia).
      now rewrite orb_true_r.
    + rewrite IH. reflexivity.
Qed.

Lemma fold_max_ge l : forall u, u <= fold_left Z.max l u /\ (forall x, In x l -> x <= fold_left Z.max l u).
Proof.
  induction l as [|y l IH]; intro u; cbn [fold_left].
  - split; [lia | intros x []].
  - destruct (IH (Z.max u y)) as [I1 I2]. split; [lia|].
    intros x [Hx|Hx]; [subst; lia | apply I2; assumption].
Qed.

Lemma fold_max_in l : forall u, fold_left Z.max l u = u \/ In (fold_left Z.max l u) l.
Proof.
  induction l as [|y l IH]; intro u; cbn [fold_left]; [left; reflexivity|].
  destruct (IH (Z.max u y)) as [E|Hin].
  - rewrite E. destruct (Z.max_spec u y) as [[_ ->]|[_ ->]]; [right; left; reflexivity | left; reflexivity].
  - right. right. assumption.
Qed.

Lemma common_In mine l r : In r (common mine l) <-> In r l /\ In r mine.
Proof. unfold common. rewrite filter_In, in_slice_In. tauto. Qed.

(* the loop in closed form: the greatest of the common revisions, none if there is none *)
Lemma choose_rev_eq mine theirs :
  choose_rev mine theirs =
  match common mine (match theirs with [] => [0] | _ => theirs end) with
  | [] => None
  | c => Some (fold_left Z.max c 0)
  end.
Proof. unfold choose_rev. rewrite choose_fold_eq. now destruct (common mine _). Qed.

Theorem choose_rev_spec mine theirs : Forall (fun r => 0 <= r) mine ->
  let theirs' := match theirs with [] => [0] | _ => theirs end in
  match choose_rev mine theirs with
  | Some r => is_highest_common mine theirs' r
  | None => forall r, In r mine -> In r theirs' -> False
  end.
Proof.
  intro Hpos. cbn zeta. rewrite choose_rev_eq.
  set (theirs' := match theirs with [] => [0] | _ => theirs end).
  destruct (common mine theirs') as [|c cs] eqn:Ec.
  - intros r Hm Ht. assert (H : In r (common mine theirs')) by (apply common_In; auto).
    rewrite Ec in H. destruct H.
  - assert (Hc : In c (common mine theirs')) by (rewrite Ec; left; reflexivity).
    apply common_In in Hc as [_ Hc]. apply (proj1 (Forall_forall _ _) Hpos) in Hc.
    (* the common revision c is not negative, so the maximum is c or comes after it *)
    assert (Hin : In (fold_left Z.max (c :: cs) 0) (c :: cs)).
    { cbn [fold_left]. rewrite Z.max_r by exact Hc.
      destruct (fold_max_in cs c) as [->|H]; [left; reflexivity|right; exact H]. }
    rewrite <- Ec in *. apply common_In in Hin as [H1 H2]. split; [assumption|split; [assumption|]].
    intros r' Hm Ht. apply fold_max_ge, common_In. auto.
Qed.

(* the lists read from the source are what the property states *)
Lemma revisions_facts :
  revisions_default = [0; 1] /\ revisions_fc_disabled = [0].
Proof. split; reflexivity. Qed.

Lemma supported_nonneg d : Forall (fun r => 0 <= r) (supported d).
Proof. destruct d; repeat constructor; lia. Qed.

(* configuration matrix: flow control is used exactly when both ends advertise negotiation and
   neither disabled it; the settings exchange happens exactly when both advertise; two real
   endpoints never fail to agree *)
Theorem mode_matrix c_adv s_adv c_dis s_dis :
  let m := tunnel_mode c_adv s_adv c_dis s_dis in
  flow_control_used m = (c_adv && s_adv && negb c_dis && negb s_dis)%bool /\
  (match m with ModeRev _ se => se = (c_adv && s_adv)%bool | ModeFail => False end) /\
  (match m with ModeRev r _ => r = if (c_adv && s_adv && negb c_dis && negb s_dis)%bool then 1 else 0 | ModeFail => False end).
Proof. destruct c_adv, s_adv, c_dis, s_dis; vm_compute; repeat split. Qed.

(* a settings message listing no revisions means revision zero *)
Theorem empty_means_zero mine : In 0 mine -> Forall (fun r => 0 <= r) mine -> choose_rev mine [] = Some 0.
Proof.
  intros H0 _. rewrite choose_rev_eq. unfold common. cbn [filter].
  now rewrite (proj2 (in_slice_In 0 mine) H0).
Qed.

(* no common revision: failure, never silent success *)
Theorem no_common_fails mine theirs : theirs <> [] ->
  (forall r, In r mine -> In r theirs -> False) -> choose_rev mine theirs = None.
Proof.
  intros Hne Hd. rewrite choose_rev_eq. destruct theirs as [|t ts]; [congruence|].
  destruct (common mine (t :: ts)) as [|c cs] eqn:Ec; [reflexivity|].
  assert (H : In c (common mine (t :: ts))) by (rewrite Ec; left; reflexivity).
  apply common_In in H as [H1 H2]. destruct (Hd c H2 H1).
Qed.
