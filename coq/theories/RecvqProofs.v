(* Proofs about the receivers: for every history of operations (arbitrary item sizes:
   a hostile peer included) the queue never holds more than the advertised window; an
   overrun is refused without changing state; credit equals exactly what was dequeued. *)
From Coq Require Import List NArith Lia.
From GT Require Import Lts Recvq.
Import ListNotations.
Set Implicit Arguments.
Local Open Scope N_scope.

Section P.
Variable T : Type.
Variable measure : T -> N.
Notation rq := (rq T).
Notation sizes := (sizes measure).
Notation rq_queued := (rq_queued measure).

Lemma sizes_cons x (l : list T) : sizes (x :: l) = measure x + sizes l.
Proof. reflexivity. Qed.

Lemma sizes_snoc (l : list T) x : sizes (l ++ [x]) = sizes l + measure x.
Proof. induction l as [|y l IH]; cbn [app]; rewrite !sizes_cons; lia. Qed.

Lemma accept_cases (q : rq) x :
  (rq_closed q = true /\ rq_accept measure q x = (q, AccDropped)) \/
  (rq_closed q = false /\ rq_win q < measure x /\ rq_accept measure q x = (q, AccOverrun)) \/
  (rq_closed q = false /\ measure x <= rq_win q /\
   rq_accept measure q x = (mkRq (rq_items q ++ [x]) (rq_win q - measure x) (rq_closed q) (rq_cancelled q), AccOk)).
Proof.
  unfold rq_accept. destruct (rq_closed q); [left; auto|].
  destruct (N.ltb_spec (rq_win q) (measure x)); [right; left | right; right]; auto.
Qed.

Lemma dequeue_cases (q : rq) :
  (exists x r, rq_cancelled q = false /\ rq_items q = x :: r /\
     rq_dequeue measure q = (mkRq r (rq_win q + measure x) (rq_closed q) (rq_cancelled q), DeqItem x (measure x))) \/
  (exists res, rq_dequeue measure q = (q, res) /\ forall x c, res <> DeqItem x c).
Proof.
  unfold rq_dequeue. destruct (rq_cancelled q); [right; eexists; split; [reflexivity|discriminate]|].
  destruct (rq_items q) as [|x r]; [|left; eauto].
  right. destruct (rq_closed q); eexists; (split; [reflexivity|discriminate]).
Qed.

(* an overrunning frame is refused and leaves the receiver untouched *)
Theorem overrun_unchanged (q q' : rq) x :
  rq_accept measure q x = (q', AccOverrun) -> q' = q /\ rq_win q < measure x /\ rq_closed q = false.
Proof.
  destruct (accept_cases q x) as [[_ E]|[[Hc [Hw E]]|[_ [_ E]]]]; rewrite E; intros [= <-]; auto.
Qed.

Theorem accept_ok (q q' : rq) x :
  rq_accept measure q x = (q', AccOk) ->
  measure x <= rq_win q /\ rq_items q' = rq_items q ++ [x] /\ rq_win q' = rq_win q - measure x.
Proof.
  destruct (accept_cases q x) as [[_ E]|[[Hc [Hw E]]|[_ [Hw E]]]]; rewrite E; intros [= <-]; auto.
Qed.

(* credit is exactly the size of the dequeued item; FIFO *)
Theorem dequeue_item (q q' : rq) x c :
  rq_dequeue measure q = (q', DeqItem x c) ->
  c = measure x /\ rq_items q = x :: rq_items q' /\ rq_win q' = rq_win q + c /\ rq_cancelled q = false.
Proof.
  destruct (dequeue_cases q) as [(y & r & Hc & Hi & E)|(res & E & Hn)]; rewrite E.
  - intros [= <- <- <-]. auto.
  - intros [= _ ->]. now destruct (Hn x c).
Qed.

Definition Inv (W : N) (q : rq) : Prop := rq_queued q + rq_win q <= W.
Definition no_cancel (o : rq_op T) : bool := match o with OpCancel => false | _ => true end.

(* accept moves bytes from the window to the queue, dequeue moves them back, close touches
   neither: the sum stays; cancel empties the queue and returns nothing to the window *)
Lemma apply_sum (q : rq) o :
  rq_queued (rq_apply measure q o) + rq_win (rq_apply measure q o) =
  if no_cancel o then rq_queued q + rq_win q else rq_win q.
Proof.
  unfold rq_queued. destruct o as [x| | |]; cbn [rq_apply no_cancel]; [| |reflexivity..].
  - destruct (accept_cases q x) as [[_ E]|[[_ [_ E]]|[_ [Hw E]]]]; rewrite E; cbn [fst rq_items rq_win]; try reflexivity.
    rewrite sizes_snoc. lia.
  - destruct (dequeue_cases q) as [(x & r & _ & Hi & E)|(res & E & _)]; rewrite E; cbn [fst rq_items rq_win]; [|reflexivity].
    rewrite Hi, sizes_cons. lia.
Qed.

Theorem bounded_always W (ops : list (rq_op T)) :
  let q := fold_left (rq_apply measure) ops (rq_init T W) in
  Inv W q /\ rq_queued q <= W.
Proof.
  intro q. assert (H : Inv W q).
  { apply fold_left_inv; unfold Inv; [|cbn; lia]. intros q' o _ H. rewrite apply_sum. destruct (no_cancel o); lia. }
  split; [exact H|]. unfold Inv in H. lia.
Qed.

(* without cancellation: queued bytes + remaining window = advertised window, exactly; so once
   the application has dequeued everything the whole window is available again *)
Theorem window_exact W (ops : list (rq_op T)) :
  forallb no_cancel ops = true ->
  let q := fold_left (rq_apply measure) ops (rq_init T W) in
  rq_queued q + rq_win q = W /\ (rq_items q = [] -> rq_win q = W).
Proof.
  intros Hn q. rewrite forallb_forall in Hn. assert (H : rq_queued q + rq_win q = W).
  { apply (fold_left_inv _ (fun q => rq_queued q + rq_win q = W)); [|reflexivity].
    intros q' o Hin H. now rewrite apply_sum, (Hn o Hin). }
  split; [exact H|]. intro He. unfold rq_queued in H. rewrite He in H. cbn in H. exact H.
Qed.

(* ghost run: total bytes accepted, total credit returned *)
Definition ledger_step (st : rq * N * N) (o : rq_op T) : rq * N * N :=
  let '(q, acc, cred) := st in
  match o with
  | OpAccept x => match rq_accept measure q x with
                  | (q', AccOk) => (q', acc + measure x, cred)
                  | (q', _) => (q', acc, cred)
                  end
  | OpDequeue => match rq_dequeue measure q with
                 | (q', DeqItem _ c) => (q', acc, cred + c)
                 | (q', _) => (q', acc, cred)
                 end
  | OpClose => (rq_close q, acc, cred)
  | OpCancel => (rq_cancel q, acc, cred)
  end.

(* the window is the advertised one minus what is accepted and not credited; what is queued
   is among that (all of it, until a cancel drops the queue) *)
Definition LedgerInv (W : N) (st : rq * N * N) : Prop :=
  let '(q, acc, cred) := st in rq_win q + acc = W + cred /\ rq_queued q + cred <= acc.

Lemma ledger_step_inv W st o : LedgerInv W st -> LedgerInv W (ledger_step st o).
Proof.
  destruct st as [[q acc] cred]. unfold LedgerInv, ledger_step, rq_queued. intros [H1 H2].
  destruct o as [x| | |].
  - destruct (accept_cases q x) as [[_ E]|[[_ [_ E]]|[_ [Hw E]]]]; rewrite E; [auto..|].
    cbn [rq_items rq_win]. rewrite sizes_snoc. lia.
  - destruct (dequeue_cases q) as [(x & r & _ & Hi & E)|(res & E & Hn)]; rewrite E.
    + cbn [rq_items rq_win]. rewrite Hi, sizes_cons in H2. lia.
    + destruct res as [y cr| |]; [now destruct (Hn y cr)|auto..].
  - auto.
  - cbn. lia.
Qed.

(* for every history: credit never exceeds what was accepted, the un-credited amount never
   exceeds the window, and the window is exactly the advertised one minus the un-credited amount *)
Theorem ledger_always W (ops : list (rq_op T)) :
  let '(q, acc, cred) := fold_left ledger_step ops (rq_init T W, 0, 0) in
  cred <= acc /\ acc - cred <= W /\ rq_win q = W - (acc - cred).
Proof.
  assert (H : LedgerInv W (fold_left ledger_step ops (rq_init T W, 0, 0))).
  { apply fold_left_inv; [intros st o _; apply ledger_step_inv|]. cbn. lia. }
  destruct (fold_left ledger_step ops _) as [[q acc] cred]. cbn in H. lia.
Qed.

Theorem r0_holds_at_most_one (r r' : r0 T) x res :
  r0_accept r x = (r', res) ->
  match res with
  | Acc0Ok => r0_slot r = None /\ r0_slot r' = Some x
  | _ => r' = r
  end.
Proof.
  unfold r0_accept. destruct (r0_closed r); [intro H; inversion H; reflexivity|].
  destruct (r0_slot r); intro H; inversion H; auto.
Qed.

(* a buffered item survives close: it is still delivered, exactly once *)
Theorem r0_item_survives_close (r : r0 T) x :
  r0_slot r = Some x ->
  r0_dequeue (r0_close r) = (mkR0 None true, DeqItem x 0) /\
  snd (r0_dequeue (fst (r0_dequeue (r0_close r)))) = DeqNone.
Proof. intro H. unfold r0_close. rewrite H. cbn. auto. Qed.

End P.
