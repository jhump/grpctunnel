(* One RPC end to end: both endpoints' per-stream state machines, the goroutines they spawn,
   and the two carrier directions, composed in one labelled transition system.

   tunnel_client.go : newStream, SendMsg, CloseSend, the context watcher, cancelStream,
                      finishStream (compare-and-swap on done, removeStream, publication),
                      the receive loop (getStream + acceptServerFrame), the window-update
                      callback of the receiver                              -> component [ck]
   tunnel_server.go : the serve loop (createStream / getStream + acceptClientFrame),
                      finishStream (compare-and-swap on finishErr, cancel, removeStream,
                      halfClose, the write-locked part that spawns the close goroutine),
                      SendHeader, SendMsg, the handler's return, the rejection goroutine,
                      the window-update callback                            -> component [sv]
   the carrier      : two FIFO queues                                       -> [rst]

   One label = one step of one goroutine, at the granularity of the synchronisation
   skeletons pinned by Skel*.v (one atomic operation / one critical section per step).
   Payloads, metadata and byte counts are abstracted away (Frames/Pipe/SrvStream cover
   them): a frame is its kind.  The tunnel stays healthy here (its end is Waits/Tables).
   Each component's control state is finite; its invariant is checked on every control
   state that can satisfy it and lifted (RpcInv.v, RpcProofs.v).  Model only. *)
From Coq Require Import List Bool Arith.
From RecordUpdate Require Import RecordUpdate.
Import ListNotations.

Inductive cframe := FNew | FReq | FHalf | FCancel | FCwu.
Inductive sframe := FHdr | FResp | FClose | FSwu.

(* what a conforming peer accepts from a tunnel client on one stream *)
Inductive gc := GcStart | GcOpen (half cancel : bool) | GcBad.
Definition gc_step (g : gc) (f : cframe) : gc :=
  match g, f with
  | GcStart, FNew => GcOpen false false
  | GcOpen h c, FReq => if h then GcBad else GcOpen h c        (* no request data after half-close *)
  | GcOpen h c, FHalf => if h then GcBad else GcOpen true c    (* half-close at most once *)
  | GcOpen h c, FCancel => if c then GcBad else GcOpen h true  (* cancel at most once *)
  | GcOpen h c, FCwu => GcOpen h c
  | _, _ => GcBad                                              (* anything before new_stream, a second new_stream *)
  end.
Definition gc_run (fs : list cframe) : gc := fold_left gc_step fs GcStart.

(* ... and from a tunnel server *)
Inductive gs := GsStart | GsHdr | GsClosed | GsClosedWu | GsBad.
Definition gs_step (g : gs) (f : sframe) : gs :=
  match g, f with
  | GsStart, FHdr => GsHdr
  | GsStart, FClose => GsClosed            (* a rejected stream: close only *)
  | GsHdr, FResp => GsHdr
  | GsHdr, FClose => GsClosed
  | (GsStart | GsHdr), FSwu => g
  | (GsClosed | GsClosedWu), FSwu => GsClosedWu   (* a reader that was mid-dequeue returns its credit late *)
  | _, _ => GsBad                          (* message before headers, headers twice, anything else after close *)
  end.
Definition gs_run (fs : list sframe) : gs := fold_left gs_step fs GsStart.

(* ====================== the tunnel client's side of one stream ====================== *)

(* who finished the client stream (first compare-and-swap on [done] wins) *)
Inductive ccause :=
| LoopClose     (* the receive loop processed close_stream *)
| LoopProto     (* the receive loop refused a frame (overrun, nil, settings): finishStream, no cancel frame *)
| ByCtx         (* the context watcher: cancelStream *)
| ByReader.     (* RecvMsg found a framing violation: cancelStream *)
Definition by_loop (c : ccause) : bool := match c with LoopClose | LoopProto => true | _ => false end.

(* where the winner of the compare-and-swap is inside finishStream *)
Inductive cstage := F0 | FWon | FRemoved | FPub.

Record ck := mkCk {
  k_new : bool;                (* newStream returned: table entry made, new_stream emitted, watcher started *)
  k_tab : bool;                (* entry in tunnelChannel.streams *)
  k_done : option ccause;      (* done: write-once *)
  k_stage : cstage;
  k_half : bool;               (* halfClosed, under writeMu *)
  k_ctx : bool;                (* the stream's context has ended *)
  k_watched : bool;            (* the watcher has run *)
  k_sig : bool;                (* doneSignal closed *)
  k_cancel_go : bool;          (* goroutine that will emit the cancel frame *)
  k_wu : bool;                 (* window-update callback past its done check, before its Send *)
  k_err : bool;                (* the receive loop met a frame for a stream that was never created *)
  k_chend : bool;              (* the channel has ended (tunnelChannel.close ran: finished, every stream cancelled, table dropped) *)
  k_hdrs : bool;               (* gotHeaders: Header() and the grpc.Header targets are available *)
  k_gotmsg : bool;             (* ghost: a response message frame has been accepted for the caller *)
  k_gin : gs;                  (* ghost: the server grammar run on every frame the receive loop has taken for the id *)
  k_g : gc                     (* ghost: the grammar automaton run on everything emitted so far *)
}.
#[export] Instance eta_ck : Settable _ := settable! mkCk
  <k_new; k_tab; k_done; k_stage; k_half; k_ctx; k_watched; k_sig; k_cancel_go; k_wu; k_err; k_chend; k_hdrs; k_gotmsg; k_gin; k_g>.
Definition k_init : ck := mkCk false false None F0 false false false false false false false false false false GsStart GcStart.

Inductive klbl :=
| CNew | CSend | CHalf | CCtxEnd | CReadBad | CWuCheck | CWuSend
| CWatch | CRemove | CPublish | CGoCancel
| CChanEnd                             (* the tunnel ends at this end: Close, the tunnel context, a failure of the carrier *)
| CLoop (f : sframe) (bad : bool).     (* the receive loop takes [f]; [bad]: the stream refuses it (overrun, nil) *)

(* the compare-and-swap at the head of finishStream *)
Definition c_cas (k : ck) (c : ccause) : ck :=
  match k_done k with
  | None => k <| k_done := Some c |> <| k_stage := FWon |>
  | Some _ => k
  end.
(* the receive loop is inside finishStream *)
Definition c_loop_busy (k : ck) : bool :=
  match k_done k, k_stage k with
  | Some c, (FWon | FRemoved) => by_loop c
  | _, _ => false
  end.

Definition kstep0 (k : ck) (l : klbl) : option (ck * list cframe) :=
  match l with
  | CNew => if k_new k then None
            else if k_chend k then Some (k, [])                 (* "channel is closed": fails at once, nothing is sent *)
            else Some (k <| k_new := true |> <| k_tab := true |>, [FNew])
  | CChanEnd =>
      (* close(): finished, every stream's context cancelled, the table dropped *)
      if k_chend k then None
      else if k_new k then Some (k <| k_chend := true |> <| k_ctx := true |> <| k_tab := false |>, [])
      else Some (k <| k_chend := true |>, [])
  | CSend => if k_new k then
               if k_half k then Some (k, [])                    (* refused: nothing reaches the wire *)
               else Some (k, [FReq])
             else None
  | CHalf => if k_new k then
               if k_sig k then Some (k, [])                     (* returns the recorded result *)
               else if k_half k then Some (k, [])               (* "already half-closed" *)
               else Some (k <| k_half := true |>, [FHalf])
             else None
  | CCtxEnd => Some (k <| k_ctx := true |>, [])
  | CWatch => if k_new k && k_ctx k && negb (k_watched k)
              then Some (c_cas (k <| k_watched := true |>) ByCtx, []) else None
  | CReadBad => if k_new k then Some (c_cas k ByReader, []) else None
  | CRemove => match k_stage k with
               | FWon => Some (k <| k_tab := false |> <| k_stage := FRemoved |>, [])
               | _ => None end
  | CPublish =>
      match k_stage k, k_done k with
      | FRemoved, Some c =>
          (* trailers, signals, (deferred) receiver.close and cancel; cancelStream then spawns the
             goroutine that tells the server *)
          Some (k <| k_sig := true |> <| k_ctx := true |> <| k_stage := FPub |> <| k_hdrs := true |>
                  <| k_cancel_go := negb (by_loop c) |>, [])
      | _, _ => None
      end
  | CGoCancel => if k_cancel_go k then Some (k <| k_cancel_go := false |>, [FCancel]) else None
  | CWuCheck => if k_new k && negb (k_wu k) then
                  match k_done k with None => Some (k <| k_wu := true |>, []) | Some _ => Some (k, []) end
                else None
  | CWuSend => if k_wu k then Some (k <| k_wu := false |>, [FCwu]) else None
  | CLoop f bad =>
      if c_loop_busy k then None
      else
      let k := k <| k_gin := gs_step (k_gin k) f |> in
      if k_tab k then
        if bad then match f with FResp => Some (c_cas k LoopProto, []) | _ => None end
        else match f with
             | FClose => Some (c_cas k LoopClose, [])
             | FHdr => Some (k <| k_hdrs := true |>, [])        (* headers recorded, targets filled, gotHeadersSignal closed *)
             | FResp => Some (k <| k_gotmsg := true |>, [])     (* queued for the caller's RecvMsg *)
             | _ => Some (k, [])
             end
      else if k_new k then Some (k, [])                        (* used and disposed of: ignored *)
      else Some (k <| k_err := true |>, [])
  end.
Definition kstep (k : ck) (l : klbl) : option (ck * list cframe) :=
  match kstep0 k l with
  | Some (k', em) => Some (k' <| k_g := fold_left gc_step em (k_g k') |>, em)
  | None => None
  end.

(* ====================== the tunnel server's side of one stream ====================== *)

(* who finished the server stream (first compare-and-swap on [finishErr] wins) *)
Inductive scause := SHandler | SCancelF | SProtoL | SReader.
(* program counter of a server-side finisher after its compare-and-swap + cancel *)
Inductive sstage := S0 | SRem | SHalfSt | SWr.
(* the goroutine finishStream spawns: headers (if none were sent), then close_stream *)
Inductive cgo := CGNone | CGHdr | CGClose | CGDone.
Inductive hstate := HNone | HRun | HRet | HRej.

Record sv := mkSv {
  v_tab : bool;                (* entry in tunnelServer.streams *)
  v_h : hstate;                (* HNone: new_stream not seen yet (lastSeen < id) *)
  v_fin : option scause;       (* finishErr: write-once *)
  v_lf : sstage; v_hf : sstage;  (* finishStream running on the serve loop / on the handler's goroutine *)
  v_half : bool;               (* halfClosed recorded *)
  v_hdr : bool; v_closed : bool;   (* sentHeaders, closed (under writeMu) *)
  v_cg : cgo;
  v_rej_go : bool;             (* goroutine that will emit the close of a refused stream *)
  v_wu : bool;                 (* window-update callback past its half-close check, before its Send *)
  v_err : bool;                (* the serve loop ended the tunnel (id reused / never created) *)
  v_ctx : bool;                (* the handler's context has been cancelled by finishStream *)
  v_g : gs                     (* ghost *)
}.
#[export] Instance eta_sv : Settable _ := settable! mkSv
  <v_tab; v_h; v_fin; v_lf; v_hf; v_half; v_hdr; v_closed; v_cg; v_rej_go; v_wu; v_err; v_ctx; v_g>.
Definition v_init : sv := mkSv false HNone None S0 S0 false false false CGNone false false false false GsStart.

(* how the serve loop judges the frame it takes *)
Inductive lmode := LNormal | LReject (* new_stream refused: shutting down, revision, method *) | LBad (* frame refused by the stream *).
Inductive vlbl :=
| SLoop (f : cframe) (m : lmode)
| HSendHdr | HSend | HReadBad | HReturn | SWuCheck | SWuSend
| SFinL | SFinH | SCloseGo | SRejGo.

(* compare-and-swap on finishErr, then cancel; the finisher goes on from SRem *)
Definition s_cas (v : sv) (c : scause) : sv :=
  match v_fin v with None => v <| v_fin := Some c |> <| v_ctx := true |> | Some _ => v <| v_ctx := true |> end.

(* one step of a finisher standing at [pc] *)
Definition s_fin (v : sv) (pc : sstage) : option (sv * sstage) :=
  match pc with
  | S0 => None
  | SRem => Some (v <| v_tab := false |>, SHalfSt)
  | SHalfSt => Some (v <| v_half := true |>, SWr)
  | SWr =>
      if v_closed v then Some (v, S0)
      else Some (v <| v_closed := true |> <| v_cg := if v_hdr v then CGClose else CGHdr |> <| v_hdr := true |>, S0)
  end.

Definition seen (v : sv) : bool := match v_h v with HNone => false | _ => true end.
Definition h_live (v : sv) : bool := match v_h v with HRun | HRet => true | _ => false end.

(* [strict]: the handler returns only when none of its reads is inside the window-update
   callback, and nothing reads for it afterwards (reads happen on the handler's goroutine) *)
Definition vstep0 (strict : bool) (v : sv) (l : vlbl) : option (sv * list sframe) :=
  match l with
  | SLoop f m =>
      match v_lf v with
      | S0 =>
          match f with
          | FNew =>
              if seen v then Some (v <| v_err := true |>, [])      (* id not greater than lastSeen *)
              else match m with
                   | LNormal => Some (v <| v_tab := true |> <| v_h := HRun |>, [])
                   | _ => Some (v <| v_h := HRej |> <| v_rej_go := true |>, [])
                   end
          | _ =>
              if v_tab v then
                match m, f with
                | LBad, FReq => Some (s_cas v SProtoL <| v_lf := SRem |>, [])
                | LBad, _ => None
                | _, FHalf => Some (v <| v_half := true |>, [])
                | _, FCancel => Some (s_cas v SCancelF <| v_lf := SRem |>, [])
                | _, _ => Some (v, [])
                end
              else if seen v then Some (v, [])                     (* used and disposed of: ignored *)
              else Some (v <| v_err := true |>, [])                (* never created *)
          end
      | _ => None
      end
  | SFinL => match s_fin v (v_lf v) with Some (v', pc) => Some (v' <| v_lf := pc |>, []) | None => None end
  | SFinH => match s_fin v (v_hf v) with Some (v', pc) => Some (v' <| v_hf := pc |>, []) | None => None end
  | HSendHdr =>
      if h_live v then
        if v_hdr v then Some (v, []) else Some (v <| v_hdr := true |>, [FHdr])
      else None
  | HSend =>
      if h_live v then
        if v_closed v then Some (v, [])
        else if v_hdr v then Some (v, [FResp])
        else Some (v <| v_hdr := true |>, [FHdr; FResp])
      else None
  | HReadBad =>
      match v_h v, v_hf v with
      | HRun, S0 => Some (s_cas v SReader <| v_hf := SRem |>, [])
      | _, _ => None
      end
  | HReturn =>
      match v_h v, v_hf v with
      | HRun, S0 => if strict && v_wu v then None
                    else Some (s_cas v SHandler <| v_hf := SRem |> <| v_h := HRet |>, [])
      | _, _ => None
      end
  | SWuCheck =>
      if h_live v then
        if v_wu v then None
        else if strict && negb (match v_h v, v_hf v with HRun, S0 => true | _, _ => false end) then None
        else if v_half v then Some (v, []) else Some (v <| v_wu := true |>, [])
      else None
  | SWuSend => if v_wu v then Some (v <| v_wu := false |>, [FSwu]) else None
  | SCloseGo =>
      match v_cg v with
      | CGHdr => Some (v <| v_cg := CGClose |>, [FHdr])
      | CGClose => Some (v <| v_cg := CGDone |>, [FClose])
      | _ => None
      end
  | SRejGo => if v_rej_go v then Some (v <| v_rej_go := false |>, [FClose]) else None
  end.
Definition vstep (strict : bool) (v : sv) (l : vlbl) : option (sv * list sframe) :=
  match vstep0 strict v l with
  | Some (v', em) => Some (v' <| v_g := fold_left gs_step em (v_g v') |>, em)
  | None => None
  end.

(* ====================== the composition ====================== *)
Record rst := mkRst {
  r_k : ck; r_v : sv;
  q_c : list cframe; q_s : list sframe;       (* emitted, not yet handed to the peer's loop *)
  h_c : list cframe; h_s : list sframe;       (* everything emitted so far (ghost) *)
  n_inv : nat                                  (* handler invocations (ghost) *)
}.
Definition r_init : rst := mkRst k_init v_init [] [] [] [] 0.

Inductive rlbl :=
| LK (l : klbl)            (* a client step other than the receive loop's *)
| LKLoop (bad : bool)      (* the client's receive loop takes the head of the server-to-client queue *)
| LV (l : vlbl)            (* a server step other than the serve loop's *)
| LVLoop (m : lmode).      (* the serve loop takes the head of the client-to-server queue *)

Definition invoked (v v' : sv) : nat :=
  match v_h v, v_h v' with HNone, HRun => 1 | _, _ => 0 end.

Definition rstep (strict : bool) (s : rst) (l : rlbl) : option rst :=
  match l with
  | LK (CLoop _ _) | LV (SLoop _ _) => None
  | LK l =>
      match kstep (r_k s) l with
      | Some (k', em) => Some (mkRst k' (r_v s) (q_c s ++ em) (q_s s) (h_c s ++ em) (h_s s) (n_inv s))
      | None => None
      end
  | LKLoop bad =>
      match q_s s with
      | [] => None
      | f :: r =>
          match kstep (r_k s) (CLoop f bad) with
          | Some (k', em) => Some (mkRst k' (r_v s) (q_c s ++ em) r (h_c s ++ em) (h_s s) (n_inv s))
          | None => None
          end
      end
  | LV l =>
      match vstep strict (r_v s) l with
      | Some (v', em) => Some (mkRst (r_k s) v' (q_c s) (q_s s ++ em) (h_c s) (h_s s ++ em) (n_inv s))
      | None => None
      end
  | LVLoop m =>
      match q_c s with
      | [] => None
      | f :: r =>
          match vstep strict (r_v s) (SLoop f m) with
          | Some (v', em) =>
              Some (mkRst (r_k s) v' r (q_s s ++ em) (h_c s) (h_s s ++ em) (n_inv s + invoked (r_v s) v'))
          | None => None
          end
      end
  end.

Fixpoint rrun (strict : bool) (s : rst) (ls : list rlbl) : option rst :=
  match ls with
  | [] => Some s
  | l :: r => match rstep strict s l with Some s' => rrun strict s' r | None => None end
  end.

(* nothing internal is left to do on the server side *)
Definition s_quiet (v : sv) : bool :=
  match v_lf v, v_hf v, v_cg v with
  | S0, S0, (CGNone | CGDone) => negb (v_rej_go v) && negb (v_wu v)
  | _, _, _ => false
  end.
(* ... on the client side *)
Definition c_quiet (k : ck) : bool :=
  match k_stage k with
  | F0 | FPub => negb (k_cancel_go k) && negb (k_wu k) && (negb (k_ctx k && k_new k) || k_watched k)
  | _ => false
  end.

Fixpoint count_close (fs : list sframe) : nat :=
  match fs with [] => 0 | FClose :: r => S (count_close r) | _ :: r => count_close r end.
Definition is_new (f : cframe) : bool := match f with FNew => true | _ => false end.
