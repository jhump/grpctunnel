(* Step lemmas of the two components of Rpc.v: what a single step can change, argued from the
   step functions for every control state; and that a step keeps the component's invariant,
   evaluated on the control states that can satisfy it (RpcInv.v). *)
From Coq Require Import List Bool.
From RecordUpdate Require Import RecordUpdate.
From GT Require Export Rpc RpcInv.
Import ListNotations.

(* [H : t = Some _] where [t] is a tree of guards: one goal per leaf that returns something,
   innermost scrutinee first so that every equation is about a field *)
Ltac guards H :=
  repeat match type of H with
         | context [match ?c with _ => _ end] =>
             lazymatch c with context [match _ with _ => _ end] => fail | _ => destruct c eqn:? end
         end;
  try discriminate H.

Lemma kstep_kstep0 k l k' em : kstep k l = Some (k', em) ->
  exists k0, kstep0 k l = Some (k0, em) /\ k' = k0 <| k_g := fold_left gc_step em (k_g k0) |>.
Proof. unfold kstep. destruct (kstep0 k l) as [[k0 em0]|]; [|discriminate]. intros [= <- <-]. eauto. Qed.
Lemma vstep_vstep0 strict v l v' em : vstep strict v l = Some (v', em) ->
  exists v0, vstep0 strict v l = Some (v0, em) /\ v' = v0 <| v_g := fold_left gs_step em (v_g v0) |>.
Proof. unfold vstep. destruct (vstep0 strict v l) as [[v0 em0]|]; [|discriminate]. intros [= <- <-]. eauto. Qed.

(* [Hs : kstep k l = Some (k', em)]: one goal per label (if [l] is a variable) and outcome of its
   guards, with [k'] and [em] replaced by what that branch returns *)
Ltac kcases Hs :=
  apply kstep_kstep0 in Hs; destruct Hs as (? & Hs & ->);
  match type of Hs with kstep0 _ ?l = _ => try (is_var l; destruct l) end;
  cbn in Hs; unfold c_cas in Hs; cbn in Hs; guards Hs; injection Hs as <- <-; subst; cbn.
Ltac vcases Hs :=
  apply vstep_vstep0 in Hs; destruct Hs as (? & Hs & ->);
  match type of Hs with vstep0 _ _ ?l = _ => try (is_var l; destruct l) end;
  cbn in Hs; unfold s_fin, s_cas in Hs; cbn in Hs; guards Hs; injection Hs as <- <-; subst; cbn.

Lemma kstep_done_write_once k l k' em c :
  kstep k l = Some (k', em) -> k_done k = Some c -> k_done k' = Some c.
Proof. intros Hs Hd. kcases Hs; congruence. Qed.

Lemma kstep_g k l k' em : kstep k l = Some (k', em) -> k_g k' = fold_left gc_step em (k_g k).
Proof. intros Hs. kcases Hs; reflexivity. Qed.

(* the frames a step takes off the peer's queue: its head, for the two loops *)
Definition ktakes (l : klbl) : list sframe := match l with CLoop f _ => [f] | _ => [] end.
Definition vtakes (l : vlbl) : list cframe := match l with SLoop f _ => [f] | _ => [] end.

Lemma kstep_gin k l k' em : kstep k l = Some (k', em) -> k_gin k' = fold_left gs_step (ktakes l) (k_gin k).
Proof. intros Hs. kcases Hs; reflexivity. Qed.

(* only newStream brings the stream into being, and only it emits new_stream *)
Lemma kstep_ids k l k' em : kstep k l = Some (k', em) ->
  (l = CNew /\ k_new k = false /\ k_new k' = true /\ em = [FNew]) \/ (k_new k' = k_new k /\ no_new em = true).
Proof. intros Hs. kcases Hs; auto 6. Qed.

(* only the receive loop finishes a stream with one of its own causes, and only one it finds in the table *)
Lemma kstep_loop_cause k l k' em c :
  kstep k l = Some (k', em) -> k_done k = None -> k_done k' = Some c -> by_loop c = true -> k_tab k = true.
Proof.
  intros Hs Hd. kcases Hs; intros Hd' Hc; try congruence.
  (* left: the compare-and-swap of the watcher and of the reader, whose causes are not the loop's *)
  all: injection Hd' as <-; discriminate Hc.
Qed.

Lemma vstep_fin_write_once strict v l v' em c :
  vstep strict v l = Some (v', em) -> v_fin v = Some c -> v_fin v' = Some c.
Proof. intros Hs Hd. vcases Hs; congruence. Qed.

Lemma vstep_g strict v l v' em : vstep strict v l = Some (v', em) -> v_g v' = fold_left gs_step em (v_g v).
Proof. intros Hs. vcases Hs; reflexivity. Qed.

(* the handler state only moves forward, and only the serve loop's new_stream step leaves HNone *)
Lemma vstep_h strict v l v' em : vstep strict v l = Some (v', em) ->
  v_h v' = v_h v \/ (v_h v = HRun /\ v_h v' = HRet) \/
  (v_h v = HNone /\ (v_h v' = HRun \/ v_h v' = HRej) /\ exists m, l = SLoop FNew m).
Proof. intros Hs. vcases Hs; unfold seen in *; destruct (v_h v); try discriminate; eauto 8. Qed.

(* the id counts as seen from the step in which the serve loop takes its new_stream frame *)
Lemma vstep_ids strict v l v' em : vstep strict v l = Some (v', em) -> seen v' = seen v || negb (no_new (vtakes l)).
Proof. intros Hs. vcases Hs; unfold seen in *; cbn; destruct (v_h v); (reflexivity || discriminate). Qed.

Lemma only_the_serve_loop_invokes strict v l v' em :
  vstep strict v l = Some (v', em) -> match l with SLoop _ _ => False | _ => True end -> invoked v v' = 0.
Proof.
  intros Hs Hl. unfold invoked.
  destruct (vstep_h _ _ _ _ _ Hs) as [->|[[-> _]|(_ & _ & m & ->)]]; [destruct (v_h v)| |destruct Hl]; reflexivity.
Qed.

Lemma vstep_cancel_ctx strict v m v' em :
  v_tab v = true -> vstep strict v (SLoop FCancel m) = Some (v', em) -> v_ctx v' = true.
Proof. intros Ht Hs. vcases Hs; congruence. Qed.

(* the serve loop ends the tunnel only over a frame a conforming client does not send *)
Lemma vstep_err strict v l v' em : venv v l = true -> vstep strict v l = Some (v', em) -> v_err v' = v_err v.
Proof. intros He Hs. vcases Hs; cbn in He; rewrite ?negb_true_iff in He; congruence. Qed.

Definition kcheck (k : ck) : bool :=
  forallb (fun l => if kenv k l
                    then match kstep k l with Some (k', em) => kinv k' && kem_ok k k' em | None => true end
                    else true) all_klbl.
Lemma kcheck_all : forall_kinv kcheck = true.
Proof. vm_compute. reflexivity. Qed.

Lemma kstep_ok k l k' em :
  kinv k = true -> kenv k l = true -> kstep k l = Some (k', em) -> kinv k' = true /\ kem_ok k k' em = true.
Proof.
  intros Hi He Hs. pose proof (forall_kinv_ok _ kcheck_all k Hi) as H. unfold kcheck in H.
  peel H l all_klbl_ok. rewrite He, Hs in H. apply andb_true_iff, H.
Qed.

(* against ANY peer: no assumption on the frames the serve loop is handed *)
Definition vcheck0 (strict : bool) (v : sv) : bool :=
  forallb (fun l => match vstep strict v l with Some (v', _) => vinv0 strict v' | None => true end) all_vlbl.
Lemma vcheck0_all strict : forall_vinv0 strict (vcheck0 strict) = true.
Proof. destruct strict; vm_compute; reflexivity. Qed.

Lemma vstep_ok_hostile strict v l v' em :
  vinv0 strict v = true -> vstep strict v l = Some (v', em) -> vinv0 strict v' = true.
Proof.
  intros Hi Hs. pose proof (forall_vinv0_ok _ _ (vcheck0_all strict) v Hi) as H. unfold vcheck0 in H.
  peel H l all_vlbl_ok. rewrite Hs in H. exact H.
Qed.

Lemma vstep_ok strict v l v' em :
  vinv strict v = true -> venv v l = true -> vstep strict v l = Some (v', em) -> vinv strict v' = true.
Proof.
  unfold vinv. rewrite !andb_true_iff. intros [He Hi] Hl Hs.
  rewrite (vstep_err _ _ _ _ _ Hl Hs). eauto using vstep_ok_hostile.
Qed.

Lemma vstep_emits_seen strict v l v' em :
  vinv0 strict v = true -> vstep strict v l = Some (v', em) -> em <> [] -> seen v = true.
Proof.
  intros Hi Hs Hne. pose proof (vinv0_says _ _ Hi) as V.
  pose proof (vi_idle _ _ V) as Hidle. pose proof (vi_rej _ _ V) as Hrej.
  destruct (h_live v) eqn:El.
  { unfold h_live, seen in *. destruct (v_h v); (reflexivity || discriminate El). }
  destruct (Hidle eq_refl) as (_ & Hcg & Hwu).
  vcases Hs; try congruence.
  (* left: SRejGo, whose guard [v_rej_go v = true] the case analysis has put into [Hrej] *)
  unfold seen. rewrite (Hrej eq_refl). reflexivity.
Qed.
