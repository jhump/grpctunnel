(* Runs of a transition system given by a partial step function: invariants and refinements lift
   from steps to runs; invariants of finite-state systems are established by evaluating a boolean
   on every state. *)
From Coq Require Import List.
Import ListNotations.

Section Runs.
  Context {S L : Type} (step : S -> L -> option S) (run : S -> list L -> option S).

  (* [run] folds [step] over the labels and stops at the first refused one.  Every model defines
     its own such Fixpoint; it satisfies both equations by computation ([run_conf] of SenderAtomicProofs.v,
     which guards the step, after one case split). *)
  Definition runs_of : Prop :=
    (forall s, run s [] = Some s) /\
    (forall s l r, run s (l :: r) = match step s l with Some s' => run s' r | None => None end).

  Hypothesis R : runs_of.

  Lemma run_inv (P : S -> Prop) :
    (forall s l s', P s -> step s l = Some s' -> P s') ->
    forall ls s s', P s -> run s ls = Some s' -> P s'.
  Proof.
    intros Hstep. induction ls as [|l r IH]; intros s s' Hs H.
    - rewrite (proj1 R) in H. now inversion H; subst.
    - rewrite (proj2 R) in H. destruct (step s l) as [s1|] eqn:E; [|discriminate].
      exact (IH s1 s' (Hstep s l s1 Hs E) H).
  Qed.

  Lemma run_app ls1 ls2 : forall s,
    run s (ls1 ++ ls2) = match run s ls1 with Some s1 => run s1 ls2 | None => None end.
  Proof.
    induction ls1 as [|l r IH]; intros s; cbn [app].
    - now rewrite (proj1 R).
    - rewrite !(proj2 R). destruct (step s l); [apply IH|reflexivity].
  Qed.

  Lemma run_snoc ls l s :
    run s (ls ++ [l]) = match run s ls with Some s1 => step s1 l | None => None end.
  Proof.
    rewrite run_app. destruct (run s ls) as [s1|]; [|reflexivity].
    rewrite (proj2 R). destruct (step s1 l); [apply (proj1 R)|reflexivity].
  Qed.

  Definition reachable (s0 s : S) : Prop := exists ls, run s0 ls = Some s.

  Lemma reachable_refl s : reachable s s.
  Proof. exists []. apply (proj1 R). Qed.

  Lemma reachable_step s0 s l s' : reachable s0 s -> step s l = Some s' -> reachable s0 s'.
  Proof. intros [ls H] E. exists (ls ++ [l]). now rewrite run_snoc, H. Qed.
End Runs.

(* Refinement: if every step of a system preserves an invariant [I] and is, through [abs], a step
   or a stutter of another system, then the image of every run is reachable there. *)
Lemma run_refines {S L T M} (step : S -> L -> option S) run (step' : T -> M -> option T) run'
    (I : S -> Prop) (abs : S -> T) :
  runs_of step run -> runs_of step' run' ->
  (forall s l s', I s -> step s l = Some s' ->
     I s' /\ (abs s' = abs s \/ exists l', step' (abs s) l' = Some (abs s'))) ->
  forall ls s0 s, I s0 -> run s0 ls = Some s -> I s /\ reachable run' (abs s0) (abs s).
Proof.
  intros R R' Hstep ls s0 s I0.
  apply (run_inv step run R (fun s => I s /\ reachable run' (abs s0) (abs s)));
    [|eauto using reachable_refl].
  clear - R' Hstep. intros s l s' [Is Rs] E.
  destruct (Hstep _ _ _ Is E) as [Is' [->|[l' E']]]; eauto using reachable_step.
Qed.

(* an invariant of the operations holds after every history (a left fold); [In]: each operation
   may be assumed to occur in the history *)
Lemma fold_left_inv {S O} (f : S -> O -> S) (P : S -> Prop) ops :
  (forall s o, In o ops -> P s -> P (f s o)) -> forall s, P s -> P (fold_left f ops s).
Proof.
  induction ops as [|o r IH]; intros H s Hs; [exact Hs|].
  apply IH; [intros; apply H; cbn; auto|apply H; cbn; auto].
Qed.

(* two folds over the same history stay related *)
Lemma fold_left_inv2 {S S' O} (f : S -> O -> S) (g : S' -> O -> S') (R : S -> S' -> Prop) :
  (forall s s' o, R s s' -> R (f s o) (g s' o)) ->
  forall ops s s', R s s' -> R (fold_left f ops s) (fold_left g ops s').
Proof. intros Hf ops. induction ops; cbn [fold_left]; auto. Qed.

(* A total automaton (run = left fold) with an absorbing state [bad], as the wire grammars are. *)
Section Absorbing.
  Context {G F : Type} (step : G -> F -> G) (bad : G).
  Hypothesis Hbad : forall f, step bad f = bad.

  Lemma fold_bad fs : fold_left step fs bad = bad.
  Proof. induction fs as [|f fs IH]; cbn; [reflexivity|]. now rewrite Hbad. Qed.

  Lemma fold_ok_prefix a b g : fold_left step (a ++ b) g <> bad -> fold_left step a g <> bad.
  Proof. rewrite fold_left_app. intros H E. now rewrite E, fold_bad in H. Qed.

  (* [P]: a set of states that only [bad] leaves and in which the inputs [Q] are refused; an
     accepted run that has reached [P] holds no such input afterwards *)
  Lemma fold_refused (P : G -> Prop) (Q : F -> Prop) :
    (forall g f, P g -> step g f = bad \/ P (step g f)) -> (forall g f, P g -> Q f -> step g f = bad) ->
    forall fs g, P g -> fold_left step fs g <> bad -> forall f, In f fs -> ~ Q f.
  Proof.
    intros Hstay Hq. induction fs as [|f0 fs IH]; intros g Hg Hok f Hin Hf; [destruct Hin|].
    cbn in Hok. destruct Hin as [->|Hin].
    - rewrite (Hq g f Hg Hf), fold_bad in Hok. now apply Hok.
    - destruct (Hstay g f0 Hg) as [E|Hg']; [rewrite E, fold_bad in Hok; now apply Hok|].
      exact (IH _ Hg' Hok f Hin Hf).
  Qed.
End Absorbing.

Definition enum {A} (l : list A) : Prop := forall x, In x l.

Lemma forallb_In {A} (P : A -> bool) l x : forallb P l = true -> In x l -> P x = true.
Proof. intro H. exact (proj1 (forallb_forall P l) H x). Qed.

Lemma enum_bool : enum [false; true].
Proof. intros []; cbn; auto. Qed.

Section Preserved.
  Context {S L : Type} (step : S -> L -> option S) (inv : S -> bool) (labels : list L).

  (* from [s], if it satisfies [inv], every enabled step leads to a state that satisfies [inv];
     [if], not [implb]: the virtual machine would evaluate both arguments of a function *)
  Definition preserved (s : S) : bool :=
    if inv s then forallb (fun l => match step s l with Some s' => inv s' | None => true end) labels else true.

  Lemma preserved_step s l s' :
    preserved s = true -> In l labels -> inv s = true -> step s l = Some s' -> inv s' = true.
  Proof.
    unfold preserved. intros H Hl Hi Hs. rewrite Hi in H.
    apply (forallb_In _ _ _ H) in Hl. now rewrite Hs in Hl.
  Qed.
End Preserved.
