(* Proofs for C18: the parser model agrees with the gRPC specification on every
   byte string; the result never wraps; malformed input never yields a deadline. *)
From Coq Require Import List ZArith Lia.
From GTgen Require Import Params.
From GT Require Import Timeout.
Import ListNotations.
Local Open Scope Z_scope.

Lemma unit_table_is_spec : forall u, lookup_unit u timeout_unit_table = spec_unit u.
Proof.
  intro u. unfold timeout_unit_table. cbn [lookup_unit].
  now rewrite !(N.eqb_sym _ u).
Qed.

Lemma spec_unit_range u k : spec_unit u = Some k -> 1 <= k <= 3600000000000.
Proof. unfold spec_unit. repeat destruct (_ =? _)%N; intros [= <-]; lia. Qed.

Lemma is_digit_val b : is_digit b = true -> 0 <= digit_val b <= 9.
Proof. unfold digit_val. intros [H1%N.leb_le H2%N.leb_le]%andb_prop. lia. Qed.

(* the loop of ParseUint from accumulator [acc] over n digits stays below (acc+1)*10^n, and
   while that is within uint64 it does not report overflow *)
Lemma parse_uint_acc_digits ds : forall acc, 0 <= acc -> forallb is_digit ds = true ->
  let v := fold_left (fun a b => a * 10 + digit_val b) ds acc in
  0 <= v < (acc + 1) * 10 ^ Z.of_nat (length ds) /\
  ((acc + 1) * 10 ^ Z.of_nat (length ds) <= max_uint64 + 1 -> parse_uint_acc acc ds = Some v).
Proof.
  induction ds as [|d ds IH]; intros acc Hacc Hd.
  - cbn. split; [lia|reflexivity].
  - apply andb_prop in Hd as [Hd1 Hd2].
    pose proof (is_digit_val d Hd1) as Hv.
    cbn [fold_left length parse_uint_acc]. rewrite Hd1, Nat2Z.inj_succ, Z.pow_succ_r by lia.
    destruct (IH (acc * 10 + digit_val d) ltac:(lia) Hd2) as [IH1 IH2].
    split; [nia|]. intro Hb.
    destruct (Z.gtb_spec (acc * 10 + digit_val d) max_uint64); [nia|apply IH2; nia].
Qed.

Lemma digits_value_bound ds : forallb is_digit ds = true ->
  0 <= digits_value ds < 10 ^ Z.of_nat (length ds).
Proof. intro H. destruct (parse_uint_acc_digits ds 0 ltac:(lia) H) as [B _]. unfold digits_value. lia. Qed.

Lemma parse_uint_digits ds : (1 <= length ds <= 8)%nat -> forallb is_digit ds = true ->
  parse_uint ds = Some (digits_value ds).
Proof.
  intros [H1 H8] Hd.
  destruct ds as [|d ds']; [cbn in H1; lia|].
  destruct (parse_uint_acc_digits (d :: ds') 0 ltac:(lia) Hd) as [_ Hp]. apply Hp.
  assert (Hpow : 10 ^ Z.of_nat (length (d :: ds')) <= 10 ^ 8) by (apply Z.pow_le_mono_r; lia).
  unfold max_uint64. lia.
Qed.

Lemma wrap64_id z : - 2 ^ 63 <= z < 2 ^ 63 -> wrap64 z = z.
Proof.
  intro H. unfold wrap64.
  change (2 ^ 64) with 18446744073709551616.
  change (2 ^ 63) with 9223372036854775808.
  destruct (Z_lt_le_dec z 0).
  - replace (z mod 18446744073709551616) with (z + 18446744073709551616)
      by (apply Z.mod_unique with (q := -1); lia).
    destruct (z + 18446744073709551616 <? 9223372036854775808) eqn:E; lia.
  - rewrite Z.mod_small by lia. destruct (z <? 9223372036854775808) eqn:E; lia.
Qed.

(* the overflow test of the code, [t > MaxInt64 / unit], is [t * unit > MaxInt64] *)
Lemma saturating_mul t k : 0 <= t -> 0 < k ->
  (if t >? max_int64 / k then max_int64 else wrap64 (t * k)) = Z.min (t * k) max_int64.
Proof.
  intros Ht Hk. destruct (Z.gtb_spec t (max_int64 / k)) as [H|H].
  - assert (Hgt : ~ k * t <= max_int64) by (intros C%Z.div_le_lower_bound; lia). lia.
  - pose proof (Z.mul_div_le max_int64 k Hk) as Hdiv. assert (Hle : t * k <= max_int64) by nia.
    rewrite wrap64_id; unfold max_int64 in *; lia.
Qed.

Lemma spec_timeout_snoc ds u : spec_timeout (ds ++ [u]) =
  if (Nat.leb 1 (length ds) && Nat.leb (length ds) 8 && forallb is_digit ds)%bool
  then option_map (fun k => Z.min (digits_value ds * k) max_int64) (spec_unit u) else None.
Proof. unfold spec_timeout. rewrite rev_unit, rev_involutive. now destruct (spec_unit u). Qed.

Lemma length_test_is_spec n :
  (Nat.ltb (n + 1) 2 || Nat.ltb 9 (n + 1))%bool = negb (Nat.leb 1 n && Nat.leb n 8).
Proof.
  destruct (Nat.leb_spec 1 n), (Nat.leb_spec n 8), (Nat.ltb_spec (n + 1) 2), (Nat.ltb_spec 9 (n + 1));
    (reflexivity || lia).
Qed.

Theorem impl_timeout_is_spec : forall s, impl_timeout s = spec_timeout s.
Proof.
  intro s. destruct s as [|u ds _] using rev_ind; [reflexivity|].
  rewrite spec_timeout_snoc. unfold impl_timeout.
  rewrite app_length, last_last, removelast_last, unit_table_is_spec, length_test_is_spec.
  destruct (Nat.leb_spec 1 (length ds)), (Nat.leb_spec (length ds) 8); try reflexivity.
  destruct (spec_unit u) as [k|] eqn:Eu; [|now destruct (forallb is_digit ds)].
  destruct (forallb is_digit ds) eqn:Ed; [|reflexivity].
  rewrite parse_uint_digits by auto. cbn [option_map].
  pose proof (spec_unit_range _ _ Eu) as Hk. pose proof (digits_value_bound ds Ed) as Hv.
  rewrite <- saturating_mul by lia. now destruct (_ >? _).
Qed.

Theorem wellformed_exact : forall ds u k,
  (1 <= length ds <= 8)%nat -> forallb is_digit ds = true -> spec_unit u = Some k ->
  impl_timeout (ds ++ [u]) = Some (Z.min (digits_value ds * k) max_int64).
Proof.
  intros ds u k [H1%Nat.leb_le H8%Nat.leb_le] Hd Hu.
  now rewrite impl_timeout_is_spec, spec_timeout_snoc, H1, H8, Hd, Hu.
Qed.

Theorem timeout_in_range : forall s d, impl_timeout s = Some d -> 0 <= d <= max_int64.
Proof.
  intros s d. rewrite impl_timeout_is_spec. destruct s as [|u ds _] using rev_ind; [discriminate|].
  rewrite spec_timeout_snoc. destruct (_ && _ && forallb is_digit ds)%bool eqn:E; [|discriminate].
  apply andb_prop in E as [_ Ed].
  destruct (spec_unit u) as [k|] eqn:Eu; [|discriminate]. intros [= <-].
  pose proof (spec_unit_range _ _ Eu) as Hk. pose proof (digits_value_bound _ Ed) as Hv.
  unfold max_int64. split; [apply Z.min_glb; nia | apply Z.le_min_r].
Qed.

Theorem malformed_never_shortens : forall s, malformed s -> impl_timeout s = None.
Proof. intros s H. rewrite impl_timeout_is_spec. exact H. Qed.

Theorem headers_last_wins : forall vals, timeout_from_headers vals = spec_from_headers vals.
Proof.
  intro vals. unfold timeout_from_headers, spec_from_headers.
  destruct (rev vals); [reflexivity | apply impl_timeout_is_spec].
Qed.

(* non-vacuity: saturation is reachable and the ordinary case is exact *)
Example sat_hours : impl_timeout [57;57;57;57;57;57;57;57;72]%N = Some max_int64.
Proof. vm_compute. reflexivity. Qed.
Example five_seconds : impl_timeout [53;83]%N = Some 5000000000.
Proof. vm_compute. reflexivity. Qed.

(* the parser before the repair violates the property: witnesses *)
Theorem v0_refuted :
  (exists s, malformed s /\ exists d, impl_timeout_v0 s = Some d /\ d < 0) /\
  (exists s d, spec_timeout s = Some d /\ exists d', impl_timeout_v0 s = Some d' /\ d' < 0).
Proof.
  split.
  - exists [45;53;83]%N. split; [reflexivity|]. eexists. split; [vm_compute; reflexivity|lia].
  - exists [57;57;57;57;57;57;57;57;72]%N. eexists. split; [vm_compute; reflexivity|].
    eexists. split; [vm_compute; reflexivity|lia].
Qed.
