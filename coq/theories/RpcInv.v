(* Invariants of the two endpoint components of Rpc.v: definitions, what they say, and the
   enumeration of the control states that can satisfy them.

   Method: each endpoint component has a finite control state.  Its invariant is a boolean
   function; "every step from every control state that satisfies the invariant (and the
   component's assumption about the frames it is handed) leads to a state that satisfies it"
   is a fact about a finite transition table and is checked by evaluation (RpcProofs.v).  The
   invariant fixes some fields as functions of the others, so only the remaining fields are
   enumerated.  What a step can change at all, and what the invariants imply, is argued.  The
   global invariant (RpcSystem.v) adds the facts about the unbounded queues and histories;
   runs of any length follow by induction. *)
From Coq Require Import List Bool.
From RecordUpdate Require Import RecordUpdate.
From GT Require Import Lts Rpc.
Import ListNotations.

Definition all_bool := [true; false].
Definition all_ccause_o := [None; Some LoopClose; Some LoopProto; Some ByCtx; Some ByReader].
Definition all_cstage := [F0; FWon; FRemoved; FPub].
Definition all_hstate := [HNone; HRun; HRet; HRej].
Definition all_scause_o := [None; Some SHandler; Some SCancelF; Some SProtoL; Some SReader].
Definition all_sstage := [S0; SRem; SHalfSt; SWr].
Definition all_cgo := [CGNone; CGHdr; CGClose; CGDone].
Definition all_gs := [GsStart; GsHdr; GsClosed; GsClosedWu; GsBad].
Definition all_sframe := [FHdr; FResp; FClose; FSwu].
Definition all_cframe := [FNew; FReq; FHalf; FCancel; FCwu].
Definition all_lmode := [LNormal; LReject; LBad].

Lemma all_bool_ok : forall x, In x all_bool. Proof. intros []; cbn; tauto. Qed.
Lemma all_ccause_o_ok : forall x, In x all_ccause_o. Proof. intros [[]|]; cbn; tauto. Qed.
Lemma all_cstage_ok : forall x, In x all_cstage. Proof. intros []; cbn; tauto. Qed.
Lemma all_hstate_ok : forall x, In x all_hstate. Proof. intros []; cbn; tauto. Qed.
Lemma all_scause_o_ok : forall x, In x all_scause_o. Proof. intros [[]|]; cbn; tauto. Qed.
Lemma all_sstage_ok : forall x, In x all_sstage. Proof. intros []; cbn; tauto. Qed.
Lemma all_cgo_ok : forall x, In x all_cgo. Proof. intros []; cbn; tauto. Qed.
Lemma all_gs_ok : forall x, In x all_gs. Proof. intros []; cbn; tauto. Qed.
Lemma all_sframe_ok : forall x, In x all_sframe. Proof. intros []; cbn; tauto. Qed.
Lemma all_cframe_ok : forall x, In x all_cframe. Proof. intros []; cbn; tauto. Qed.

(* one level of a nested [forallb] over complete enumerations *)
Ltac peel H x okl :=
  let H' := fresh in
  pose proof (forallb_In _ _ x H (okl x)) as H'; cbv beta in H'; clear H; rename H' into H.

Definition gc_eqb (a b : gc) : bool :=
  match a, b with
  | GcStart, GcStart | GcBad, GcBad => true
  | GcOpen h c, GcOpen h' c' => Bool.eqb h h' && Bool.eqb c c'
  | _, _ => false
  end.
Lemma gc_eqb_eq a b : gc_eqb a b = true -> a = b.
Proof. destruct a as [|[] []|], b as [|[] []|]; try discriminate; reflexivity. Qed.
Definition gs_eqb (a b : gs) : bool :=
  match a, b with
  | GsStart, GsStart | GsHdr, GsHdr | GsClosed, GsClosed | GsClosedWu, GsClosedWu | GsBad, GsBad => true
  | _, _ => false
  end.
Lemma gs_eqb_eq a b : gs_eqb a b = true -> a = b.
Proof. destruct a, b; try discriminate; reflexivity. Qed.
Definition cstage_eqb (a b : cstage) : bool :=
  match a, b with F0, F0 | FWon, FWon | FRemoved, FRemoved | FPub, FPub => true | _, _ => false end.
Definition sstage_eqb (a b : sstage) : bool :=
  match a, b with S0, S0 | SRem, SRem | SHalfSt, SHalfSt | SWr, SWr => true | _, _ => false end.
Definition cgo_eqb (a b : cgo) : bool :=
  match a, b with CGNone, CGNone | CGHdr, CGHdr | CGClose, CGClose | CGDone, CGDone => true | _, _ => false end.
Definition hstate_eqb (a b : hstate) : bool :=
  match a, b with HNone, HNone | HRun, HRun | HRet, HRet | HRej, HRej => true | _, _ => false end.
Definition is_none {A} (o : option A) : bool := match o with None => true | Some _ => false end.
Definition scause_o_eqb (a b : option scause) : bool :=
  match a, b with
  | None, None | Some SHandler, Some SHandler | Some SCancelF, Some SCancelF
  | Some SProtoL, Some SProtoL | Some SReader, Some SReader => true
  | _, _ => false
  end.
Definition no_new (fs : list cframe) : bool := forallb (fun f => negb (is_new f)) fs.

(* the cancel frame is on the wire exactly when the winner was a cancelStream that has got as far
   as spawning its goroutine, and that goroutine has run *)
Definition cancel_emitted (k : ck) : bool :=
  match k_stage k, k_done k with
  | FPub, Some c => negb (by_loop c) && negb (k_cancel_go k)
  | _, _ => false
  end.

Definition kinv (k : ck) : bool :=
  negb (k_err k) &&
  (* everything emitted so far, as a function of the control state *)
  gc_eqb (k_g k) (if k_new k then GcOpen (k_half k) (cancel_emitted k) else GcStart) &&
  (* before newStream nothing exists *)
  (k_new k || (negb (k_tab k) && is_none (k_done k) && negb (k_cancel_go k) && negb (k_wu k) &&
               negb (k_half k) && negb (k_sig k) && negb (k_watched k))) &&
  Bool.eqb (cstage_eqb (k_stage k) F0) (is_none (k_done k)) &&
  (* the table entry lives from newStream to the winner's removeStream *)
  Bool.eqb (k_tab k) (k_new k && negb (k_chend k) && (cstage_eqb (k_stage k) F0 || cstage_eqb (k_stage k) FWon)) &&
  (* the end of the channel cancels every stream it had *)
  implb (k_chend k && k_new k) (k_ctx k) &&
  Bool.eqb (k_sig k) (cstage_eqb (k_stage k) FPub) &&
  implb (k_cancel_go k)
        (cstage_eqb (k_stage k) FPub && match k_done k with Some c => negb (by_loop c) | None => false end) &&
  (* the watcher's compare-and-swap leaves done set, whoever won *)
  implb (k_watched k) (negb (is_none (k_done k))) &&
  (* headers: recorded when the headers frame is taken while the stream is in the table; a message is only
     accepted after that (the frames taken conform to the server grammar: headers precede messages) *)
  negb (gs_eqb (k_gin k) GsBad) &&
  implb (k_tab k && gs_eqb (k_gin k) GsHdr) (k_hdrs k) &&
  implb (k_gotmsg k) (k_hdrs k) &&
  implb (k_sig k) (k_hdrs k) &&                      (* at the latest they are published together with the result *)
  (k_new k || (gs_eqb (k_gin k) GsStart && negb (k_hdrs k) && negb (k_gotmsg k))).

(* the clauses of [kinv] that later proofs cite, as propositions *)
Record kinv_clauses (k : ck) : Prop := {
  ki_err : k_err k = false;
  ki_g : k_g k = if k_new k then GcOpen (k_half k) (cancel_emitted k) else GcStart;
  ki_stage : cstage_eqb (k_stage k) F0 = is_none (k_done k);
  ki_tab : k_tab k = k_new k && negb (k_chend k) && (cstage_eqb (k_stage k) F0 || cstage_eqb (k_stage k) FWon);
  ki_end : k_chend k && k_new k = true -> k_ctx k = true;
  ki_sig : k_sig k = cstage_eqb (k_stage k) FPub;
  ki_watched : k_watched k = true -> is_none (k_done k) = false;
  ki_msg : k_gotmsg k = true -> k_hdrs k = true;
  ki_pub : k_sig k = true -> k_hdrs k = true
}.
Lemma kinv_says k : kinv k = true -> kinv_clauses k.
Proof.
  unfold kinv. rewrite !andb_true_iff.
  intros (((((((((((((Herr & Hg) & _) & Hstage) & Htab) & Hend) & Hsig) & _) & Hwatched) & _) & _) & Hmsg) & Hpub) & _).
  constructor.
  - apply negb_true_iff, Herr.
  - apply gc_eqb_eq, Hg.
  - apply eqb_prop, Hstage.
  - apply eqb_prop, Htab.
  - apply implb_true_iff, Hend.
  - apply eqb_prop, Hsig.
  - intros E. apply negb_true_iff. revert E. apply implb_true_iff, Hwatched.
  - apply implb_true_iff, Hmsg.
  - apply implb_true_iff, Hpub.
Qed.

Lemma kinv_conforms k : kinv k = true -> k_g k <> GcBad.
Proof. intros H. rewrite (ki_g k (kinv_says k H)). destruct (k_new k); discriminate. Qed.

(* what the component assumes about its environment: a frame can only arrive once the stream
   exists (the server emits nothing for an id before it has seen new_stream) *)
Definition kenv (k : ck) (l : klbl) : bool :=
  match l with
  | CLoop f _ => k_new k && negb (gs_eqb (gs_step (k_gin k) f) GsBad)   (* ... and what it emits for the id conforms *)
  | _ => true
  end.

(* what a step may emit: nothing before newStream, new_stream with it and never again.  [kstep_ids]
   (RpcProofs.v) has the last two for every control state; the first needs the invariant (no goroutine
   of the stream is pending before newStream) *)
Definition kem_ok (k k' : ck) (em : list cframe) : bool :=
  if k_new k then no_new em && k_new k'
  else match em with [] => negb (k_new k') | [FNew] => k_new k' | _ => false end.

Definition all_klbl : list klbl :=
  [CNew; CSend; CHalf; CCtxEnd; CReadBad; CWuCheck; CWuSend; CWatch; CRemove; CPublish; CGoCancel; CChanEnd] ++
  flat_map (fun f => [CLoop f true; CLoop f false]) all_sframe.
Lemma all_klbl_ok : forall l, In l all_klbl.
Proof. intros [| | | | | | | | | | | |[] []]; cbn; tauto. Qed.

(* [kinv] fixes k_tab, k_sig, k_err and k_g as functions of the other fields (ki_tab, ki_sig, ki_err,
   ki_g): a control state that satisfies it is [k_fix] of itself, and only the other twelve fields
   need to be enumerated (51 200 candidates instead of 2 457 600) *)
Definition k_fix (k : ck) : ck :=
  k <| k_tab := k_new k && negb (k_chend k) && (cstage_eqb (k_stage k) F0 || cstage_eqb (k_stage k) FWon) |>
    <| k_sig := cstage_eqb (k_stage k) FPub |> <| k_err := false |>
    <| k_g := if k_new k then GcOpen (k_half k) (cancel_emitted k) else GcStart |>.
Lemma kinv_fix k : kinv k = true -> k_fix k = k.
Proof.
  intros H. pose proof (kinv_says k H) as K.
  pose proof (ki_tab k K) as Ht. pose proof (ki_sig k K) as Hs. pose proof (ki_err k K) as He. pose proof (ki_g k K) as Hg.
  destruct k. unfold cancel_emitted in Hg. cbn in Ht, Hs, He, Hg. subst. reflexivity.
Qed.
Definition forall_kinv (P : ck -> bool) : bool :=
  forallb (fun a => forallb (fun c => forallb (fun d => forallb (fun e => forallb (fun f => forallb (fun g =>
  forallb (fun i => forallb (fun j => forallb (fun k2 => forallb (fun k3 => forallb (fun k4 => forallb (fun k5 =>
    let k := k_fix (mkCk a false c d e f g false i j false k2 k3 k4 k5 GcStart) in
    if kinv k then P k else true)
  all_gs) all_bool) all_bool) all_bool) all_bool) all_bool) all_bool) all_bool) all_bool) all_cstage) all_ccause_o) all_bool.
Lemma k_fix_free k :
  k_fix k = k_fix (mkCk (k_new k) false (k_done k) (k_stage k) (k_half k) (k_ctx k) (k_watched k) false (k_cancel_go k)
                        (k_wu k) false (k_chend k) (k_hdrs k) (k_gotmsg k) (k_gin k) GcStart).
Proof. reflexivity. Qed.
Lemma forall_kinv_ok P : forall_kinv P = true -> forall k, kinv k = true -> P k = true.
Proof.
  (* [forall_kinv] is unfolded in the goal: unfolded in [H] after [intros], the cast it leaves makes the
     kernel evaluate the nest of [forallb] at [Qed] *)
  unfold forall_kinv. intros H k Hk. rewrite <- (kinv_fix k Hk), k_fix_free in Hk |- *.
  peel H (k_new k) all_bool_ok. peel H (k_done k) all_ccause_o_ok. peel H (k_stage k) all_cstage_ok.
  peel H (k_half k) all_bool_ok. peel H (k_ctx k) all_bool_ok. peel H (k_watched k) all_bool_ok.
  peel H (k_cancel_go k) all_bool_ok. peel H (k_wu k) all_bool_ok. peel H (k_chend k) all_bool_ok.
  peel H (k_hdrs k) all_bool_ok. peel H (k_gotmsg k) all_bool_ok. peel H (k_gin k) all_gs_ok.
  rewrite Hk in H. exact H.
Qed.

(* everything the server has emitted for the stream, as a function of its control state.  An accepted
   stream stands at "headers out" exactly when v_hdr says so - except while the close goroutine still
   owes them (CGHdr): finishStream sets sentHeaders under the lock and leaves the frame to the goroutine *)
Definition g_okb (v : sv) : bool :=
  match v_h v with
  | HNone => gs_eqb (v_g v) GsStart
  | HRej => gs_eqb (v_g v) (if v_rej_go v then GsStart else GsClosed)
  | HRun | HRet =>
      match v_cg v with
      | CGDone => gs_eqb (v_g v) GsClosed || gs_eqb (v_g v) GsClosedWu
      | CGHdr => gs_eqb (v_g v) GsStart
      | CGClose => gs_eqb (v_g v) GsHdr
      | CGNone => gs_eqb (v_g v) (if v_hdr v then GsHdr else GsStart)
      end
  end.

(* everything but "the tunnel was not ended": holds against any peer *)
Definition vinv0 (strict : bool) (v : sv) : bool :=
  g_okb v &&
  (h_live v || (negb (v_tab v) && sstage_eqb (v_lf v) S0 && sstage_eqb (v_hf v) S0 && cgo_eqb (v_cg v) CGNone &&
                negb (v_wu v) && is_none (v_fin v) && negb (v_closed v) && negb (v_hdr v))) &&
  implb (v_rej_go v) (hstate_eqb (v_h v) HRej) &&
  Bool.eqb (v_closed v) (negb (cgo_eqb (v_cg v) CGNone)) &&
  implb (negb (cgo_eqb (v_cg v) CGNone)) (v_hdr v) &&
  (* the table entry is gone once any finisher is past removeStream *)
  implb (v_tab v)
        (negb (v_closed v) && (sstage_eqb (v_lf v) S0 || sstage_eqb (v_lf v) SRem) &&
         (sstage_eqb (v_hf v) S0 || sstage_eqb (v_hf v) SRem) &&
         implb (hstate_eqb (v_h v) HRet) (sstage_eqb (v_hf v) SRem)) &&
  (* the handler's return does not finish before the stream is closed *)
  implb (hstate_eqb (v_h v) HRet && sstage_eqb (v_hf v) S0) (v_closed v) &&
  implb (is_none (v_fin v))
        (sstage_eqb (v_lf v) S0 && sstage_eqb (v_hf v) S0 && negb (v_closed v) && negb (hstate_eqb (v_h v) HRet)) &&
  (* the handler's context is cancelled exactly when the stream has been finished (by anyone) *)
  Bool.eqb (v_ctx v) (negb (is_none (v_fin v))) &&
  (* with reads confined to the handler's goroutine, a stream the handler ended has nothing
     after its close frame *)
  implb strict
        (implb (hstate_eqb (v_h v) HRet) (negb (v_wu v)) &&
         implb (scause_o_eqb (v_fin v) (Some SHandler))
               (hstate_eqb (v_h v) HRet && negb (gs_eqb (v_g v) GsClosedWu))).
Definition vinv (strict : bool) (v : sv) : bool := negb (v_err v) && vinv0 strict v.

(* the clauses of [vinv0] that later proofs cite, as propositions *)
Record vinv0_clauses (strict : bool) (v : sv) : Prop := {
  vi_g : g_okb v = true;
  vi_idle : h_live v = false ->
            v_tab v = false /\ v_cg v = CGNone /\ v_wu v = false;
  vi_rej : v_rej_go v = true -> v_h v = HRej;
  vi_closed : v_closed v = negb (cgo_eqb (v_cg v) CGNone);
  vi_tab : v_tab v = true -> v_closed v = false /\ (v_h v = HRet -> v_hf v = SRem);
  vi_ret : v_h v = HRet -> v_hf v = S0 -> v_closed v = true;
  vi_ctx : v_ctx v = negb (is_none (v_fin v));
  vi_last : strict = true -> v_fin v = Some SHandler -> v_g v <> GsClosedWu
}.
Lemma vinv0_says strict v : vinv0 strict v = true -> vinv0_clauses strict v.
Proof.
  unfold vinv0. rewrite !andb_true_iff.
  intros (((((((((Hg & Hidle) & Hrej) & Hclosed) & _) & Htab) & Hret) & _) & Hctx) & Hlast).
  constructor.
  - exact Hg.
  - intros E. rewrite E in Hidle. cbn [orb] in Hidle. rewrite !andb_true_iff, !negb_true_iff in Hidle.
    destruct (v_cg v); cbn in Hidle; intuition discriminate.
  - intros E. rewrite E in Hrej. cbn in Hrej. destruct (v_h v); (reflexivity || discriminate).
  - apply eqb_prop, Hclosed.
  - intros E. rewrite E in Htab. cbn [implb] in Htab. rewrite !andb_true_iff, negb_true_iff in Htab.
    destruct Htab as (((Hc & _) & _) & Hr). split; [exact Hc|].
    intros Eh. rewrite Eh in Hr. cbn in Hr. destruct (v_hf v); (reflexivity || discriminate).
  - intros Eh Ef. rewrite Eh, Ef in Hret. exact Hret.
  - apply eqb_prop, Hctx.
  - intros -> Ef E. rewrite Ef, E in Hlast. cbn in Hlast.
    destruct (hstate_eqb (v_h v) HRet), (v_wu v); discriminate.
Qed.

Lemma vinv0_conforms strict v : vinv0 strict v = true -> v_g v <> GsBad.
Proof.
  intros H E. pose proof (vi_g _ _ (vinv0_says _ _ H)) as Hg. unfold g_okb in Hg. rewrite E in Hg.
  destruct (v_h v), (v_cg v), (v_rej_go v), (v_hdr v); discriminate Hg.
Qed.
Lemma vinv_vinv0 strict v : vinv strict v = true -> v_err v = false /\ vinv0 strict v = true.
Proof. unfold vinv. rewrite andb_true_iff, negb_true_iff. auto. Qed.

(* a conforming client: new_stream is the first frame the serve loop takes for the id, and the only one *)
Definition venv (v : sv) (l : vlbl) : bool :=
  match l with
  | SLoop FNew _ => negb (seen v)
  | SLoop _ _ => seen v
  | _ => true
  end.

Definition all_vlbl : list vlbl :=
  [HSendHdr; HSend; HReadBad; HReturn; SWuCheck; SWuSend; SFinL; SFinH; SCloseGo; SRejGo] ++
  flat_map (fun f => map (SLoop f) all_lmode) all_cframe.
Lemma all_vlbl_ok : forall l, In l all_vlbl.
Proof. intros [[] []| | | | | | | | | |]; cbn; tauto. Qed.

(* [vinv0] fixes v_closed and v_ctx as functions of the other fields (vi_closed, vi_ctx), and its
   first clause [g_okb] reads five fields only: these are enumerated first, and the other seven
   (v_err among them, which [vinv0] leaves alone) only where that clause holds: 72 x 1 280
   candidates instead of 1 638 400 *)
Definition v_fix (v : sv) : sv :=
  v <| v_closed := negb (cgo_eqb (v_cg v) CGNone) |> <| v_ctx := negb (is_none (v_fin v)) |>.
Lemma vinv0_fix strict v : vinv0 strict v = true -> v_fix v = v.
Proof.
  intros H. pose proof (vinv0_says strict v H) as V.
  pose proof (vi_closed _ _ V) as Hc. pose proof (vi_ctx _ _ V) as Hx.
  destruct v. cbn in Hc, Hx. subst. reflexivity.
Qed.
Definition forall_vinv0 (strict : bool) (P : sv -> bool) : bool :=
  forallb (fun b => forallb (fun g => forallb (fun i => forallb (fun j => forallb (fun m =>
    if g_okb (mkSv false b None S0 S0 false g false i j false false false m) then
      forallb (fun a => forallb (fun c => forallb (fun d => forallb (fun e => forallb (fun f =>
      forallb (fun k => forallb (fun l =>
        let v := v_fix (mkSv a b c d e f g false i j k l false m) in
        if vinv0 strict v then P v else true)
      all_bool) all_bool) all_bool) all_sstage) all_sstage) all_scause_o) all_bool
    else true)
  all_gs) all_bool) all_cgo) all_bool) all_hstate.
Lemma v_fix_free v :
  v_fix v = v_fix (mkSv (v_tab v) (v_h v) (v_fin v) (v_lf v) (v_hf v) (v_half v) (v_hdr v) false (v_cg v)
                        (v_rej_go v) (v_wu v) (v_err v) false (v_g v)).
Proof. reflexivity. Qed.
Lemma forall_vinv0_ok strict P : forall_vinv0 strict P = true -> forall v, vinv0 strict v = true -> P v = true.
Proof.
  unfold forall_vinv0. intros H v Hv.
  assert (Hg : g_okb (mkSv false (v_h v) None S0 S0 false (v_hdr v) false (v_cg v) (v_rej_go v)
                           false false false (v_g v)) = true).
  { change (g_okb v = true). exact (vi_g _ _ (vinv0_says _ _ Hv)). }
  rewrite <- (vinv0_fix strict v Hv), v_fix_free in Hv |- *.
  peel H (v_h v) all_hstate_ok. peel H (v_hdr v) all_bool_ok. peel H (v_cg v) all_cgo_ok.
  peel H (v_rej_go v) all_bool_ok. peel H (v_g v) all_gs_ok. rewrite Hg in H.
  peel H (v_tab v) all_bool_ok. peel H (v_fin v) all_scause_o_ok. peel H (v_lf v) all_sstage_ok.
  peel H (v_hf v) all_sstage_ok. peel H (v_half v) all_bool_ok. peel H (v_wu v) all_bool_ok.
  peel H (v_err v) all_bool_ok. rewrite Hv in H. exact H.
Qed.
