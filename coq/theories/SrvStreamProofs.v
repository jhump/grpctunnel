From Coq Require Import List NArith Bool.
From GT Require Import SrvStream.
Import ListNotations.

(* invariant tying the write-side flags to the grammar state of what has been emitted *)
Definition Rel (s : sw) (g : gstate) : Prop :=
  match g with
  | GStart => sw_sent_hdrs s = false /\ sw_closed s = false
  | GHdr => sw_sent_hdrs s = true /\ sw_closed s = false
  | GClosed => sw_sent_hdrs s = true /\ sw_closed s = true
  | GBad => False
  end.

Lemma step_rel ss s g o : Rel s g ->
  let '(s', fr, _) := sw_step ss s o in Rel s' (fold_left g_step fr g).
Proof.
  (* with the two flags rewritten every case computes; WSend also branches on refusing a second message
     of a call that does not stream *)
  destruct g; intro H; try contradiction; destruct H as [H1 H2];
    destruct o; cbn [sw_step]; rewrite ?H1, ?H2; cbn;
    try (split; assumption); try (split; reflexivity).
  (* left: the two WSend cases *)
  all: (destruct (negb ss && _); cbn; split; assumption || reflexivity).
Qed.

Lemma sw_run_cons ss s o r :
  sw_run ss s (o :: r) =
  let '(s1, fr, _) := sw_step ss s o in (fst (sw_run ss s1 r), fr ++ snd (sw_run ss s1 r)).
Proof. cbn [sw_run]. destruct (sw_step ss s o) as [[s1 fr] ok]. now destruct (sw_run ss s1 r). Qed.

(* for every sequence of handler operations (and finishes from any cause) the frames emitted
   for the stream follow "headers? message* close?": headers at most once and before any
   message, at most one close, nothing after the close *)
Theorem emitted_grammar ss ops : g_run (snd (sw_run ss sw0 ops)) <> GBad.
Proof.
  assert (G : forall l s g, Rel s g -> Rel (fst (sw_run ss s l)) (fold_left g_step (snd (sw_run ss s l)) g)).
  { induction l as [|o r IH]; intros s g H; [exact H|]. rewrite sw_run_cons.
    pose proof (step_rel ss s g o H) as S. destruct (sw_step ss s o) as [[s1 fr] ok].
    cbn [fst snd]. rewrite fold_left_app. exact (IH s1 _ S). }
  specialize (G ops sw0 GStart (conj eq_refl eq_refl)). unfold g_run.
  intro E. rewrite E in G. cbn in G. exact G.
Qed.

(* a second message on a non-server-streaming method is refused and puts nothing on the wire *)
Theorem second_send_refused s tag : sw_nsent s = 1%N -> sw_sent_hdrs s = true -> sw_closed s = false ->
  sw_step false s (WSend tag) = (s, [], false).
Proof. intros H1 H2 H3. unfold sw_step. rewrite H3, H2, H1. reflexivity. Qed.

(* once closed, a send emits nothing (no frame after close_stream) *)
Theorem closed_send_emits_nothing ss s tag : sw_closed s = true -> sw_step ss s (WSend tag) = (s, [], false).
Proof. intro H. unfold sw_step. now rewrite H. Qed.

Definition is_hdrs (f : sframe) := match f with SHdrs _ => true | _ => false end.
Definition is_close (f : sframe) := match f with SClose _ _ => true | _ => false end.

(* before the headers have gone out, a step either is silent and leaves the rest of the operations
   wanting the same headers, or puts the wanted headers first *)
Lemma step_headers ss s o r : sw_sent_hdrs s = false -> sw_closed s = false ->
  let '(s1, fr, _) := sw_step ss s o in
  (fr = [] /\ sw_sent_hdrs s1 = false /\ sw_closed s1 = false /\
   wanted_headers (sw_hdrs s1) r = wanted_headers (sw_hdrs s) (o :: r))
  \/ exists fr', fr = SHdrs (wanted_headers (sw_hdrs s) (o :: r)) :: fr'.
Proof.
  intros H1 H2. destruct o; cbn [sw_step]; rewrite ?H1, ?H2; cbn; eauto.
  destruct (negb ss && _); eauto.
Qed.

Lemma run_headers ss : forall ops s, sw_sent_hdrs s = false -> sw_closed s = false ->
  match filter is_hdrs (snd (sw_run ss s ops)) with
  | SHdrs md :: _ => md = wanted_headers (sw_hdrs s) ops
  | _ => True
  end.
Proof.
  induction ops as [|o r IH]; intros s H1 H2; [exact I|]. rewrite sw_run_cons.
  pose proof (step_headers ss s o r H1 H2) as S. destruct (sw_step ss s o) as [[s1 fr] ok]. cbn [snd].
  destruct S as [(-> & S1 & S2 & <-)|[fr' ->]]; [exact (IH s1 S1 S2)|reflexivity].
Qed.

(* the first headers frame carries exactly the headers set before it, the close frame
   ([trailers_exact]) exactly the trailers set before it *)
Theorem headers_exact ss ops :
  match filter (fun f => match f with SHdrs _ => true | _ => false end) (snd (sw_run ss sw0 ops)) with
  | SHdrs md :: _ => md = wanted_headers [] ops
  | _ => True
  end.
Proof. exact (run_headers ss ops sw0 eq_refl eq_refl). Qed.

(* before the close, a step emits no close frame and leaves the rest of the operations wanting the
   same trailers, unless it is the finish, which emits the close with the trailers set so far *)
Lemma step_trailers ss s o r : sw_closed s = false ->
  let '(s1, fr, _) := sw_step ss s o in
  (filter is_close fr = [] /\ sw_closed s1 = false /\
   wanted_trailers (sw_trls s1) r = wanted_trailers (sw_trls s) (o :: r))
  \/ exists st fr', filter is_close fr = SClose st (wanted_trailers (sw_trls s) (o :: r)) :: fr'.
Proof.
  intros H. destruct o; cbn [sw_step]; rewrite ?H; destruct (sw_sent_hdrs s); cbn; eauto.
  all: destruct (negb ss && _); cbn; eauto.
Qed.

Lemma run_trailers ss : forall ops s, sw_closed s = false ->
  match filter is_close (snd (sw_run ss s ops)) with
  | SClose _ md :: _ => md = wanted_trailers (sw_trls s) ops
  | _ => True
  end.
Proof.
  induction ops as [|o r IH]; intros s H; [exact I|]. rewrite sw_run_cons.
  pose proof (step_trailers ss s o r H) as S. destruct (sw_step ss s o) as [[s1 fr] ok]. cbn [snd].
  rewrite filter_app. destruct S as [(-> & S1 & <-)|(st & fr' & ->)]; [exact (IH s1 S1)|reflexivity].
Qed.

Theorem trailers_exact ss ops :
  match filter (fun f => match f with SClose _ _ => true | _ => false end) (snd (sw_run ss sw0 ops)) with
  | SClose _ md :: _ => md = wanted_trailers [] ops
  | _ => True
  end.
Proof. exact (run_trailers ss ops sw0 eq_refl). Qed.
