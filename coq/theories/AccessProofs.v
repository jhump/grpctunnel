(* What the access-table check buys (C15), and the check itself on the regenerated table. *)
From Coq Require Import List Arith NArith Bool String.
From GT Require Import Access.
From GTgen Require Import AccessTable.
Import ListNotations.

(* A lock state gives, per goroutine, the mutexes it holds (exclusively or shared).  The steps
   are the ones sync.Mutex / sync.RWMutex permit. *)
Definition thread := nat.
Definition lockstate := thread -> list (string * bool).

Definition held_by (ls : lockstate) (t : thread) (l : string) : option bool :=
  match find (fun p => String.eqb (fst p) l) (ls t) with Some p => Some (snd p) | None => None end.

Definition mutex_ok (ls : lockstate) : Prop :=
  forall t1 t2 l e1 e2, t1 <> t2 -> held_by ls t1 l = Some e1 -> held_by ls t2 l = Some e2 -> e1 = false /\ e2 = false.

Inductive lstep (ls : lockstate) : lockstate -> Prop :=
| LAcquire t l ex :
    held_by ls t l = None ->
    (forall t', t' <> t -> match held_by ls t' l with None => True | Some e => ex = false /\ e = false end) ->
    lstep ls (fun u => if Nat.eqb u t then (l, ex) :: ls t else ls u)
| LRelease t l :
    lstep ls (fun u => if Nat.eqb u t then filter (fun p => negb (String.eqb (fst p) l)) (ls t) else ls u).

Lemma find_filter (l l' : string) (xs : list (string * bool)) :
  find (fun p => String.eqb (fst p) l) (filter (fun p => negb (String.eqb (fst p) l')) xs)
  = if String.eqb l l' then None else find (fun p => String.eqb (fst p) l) xs.
Proof.
  induction xs as [|[k e] xs IH]; cbn; [now destruct (String.eqb l l')|].
  destruct (String.eqb k l') eqn:E1; cbn.
  - rewrite IH. destruct (String.eqb l l') eqn:E2; [reflexivity|].
    apply String.eqb_eq in E1 as ->. now rewrite String.eqb_sym, E2.
  - destruct (String.eqb k l) eqn:E2; [|exact IH]. apply String.eqb_eq in E2 as ->. now rewrite E1.
Qed.

Lemma held_acquire ls t l ex u l0 e :
  held_by (fun v => if Nat.eqb v t then (l, ex) :: ls t else ls v) u l0 = Some e ->
  held_by ls u l0 = Some e \/ u = t /\ l0 = l /\ e = ex.
Proof.
  unfold held_by. destruct (Nat.eqb u t) eqn:E; [|auto]. apply Nat.eqb_eq in E as ->. cbn.
  destruct (String.eqb l l0) eqn:El; [|auto]. apply String.eqb_eq in El as ->. intros [= <-]. auto.
Qed.

Lemma held_release ls t l u l0 e :
  held_by (fun v => if Nat.eqb v t then filter (fun p => negb (String.eqb (fst p) l)) (ls t) else ls v) u l0 = Some e ->
  held_by ls u l0 = Some e.
Proof.
  unfold held_by. destruct (Nat.eqb u t) eqn:E; [|auto]. apply Nat.eqb_eq in E as ->.
  rewrite find_filter. now destruct (String.eqb l0 l).
Qed.

Lemma mutex_ok_init : mutex_ok (fun _ => []).
Proof. intros t1 t2 l e1 e2 _ H. discriminate H. Qed.

Lemma mutex_ok_step ls ls' : mutex_ok ls -> lstep ls ls' -> mutex_ok ls'.
Proof.
  intros Hok [t l ex _ Hothers | t l] t1 t2 l0 e1 e2 Hne H1 H2.
  - apply held_acquire in H1, H2. destruct H1 as [H1|(? & ? & ?)], H2 as [H2|(? & ? & ?)]; subst.
    + exact (Hok _ _ _ _ _ Hne H1 H2).
    + specialize (Hothers t1 Hne). rewrite H1 in Hothers. tauto.
    + specialize (Hothers t2 (not_eq_sym Hne)). now rewrite H2 in Hothers.
    + now destruct Hne.
  - exact (Hok _ _ _ _ _ Hne (held_release _ _ _ _ _ _ H1) (held_release _ _ _ _ _ _ H2)).
Qed.

Inductive lreach : lockstate -> Prop :=
| lreach0 : lreach (fun _ => [])
| lreachS ls ls' : lreach ls -> lstep ls ls' -> lreach ls'.

Lemma lreach_ok ls : lreach ls -> mutex_ok ls.
Proof. induction 1; [apply mutex_ok_init | eapply mutex_ok_step; eassumption]. Qed.

(* A goroutine standing at a site holds at least the mutexes the table lists for it. *)
Definition stands_at (ls : lockstate) (t : thread) (s : site) : Prop :=
  forall l e, holds l s = Some e -> exists e', held_by ls t l = Some e' /\ (e = true -> e' = true).

Lemma common_lock_spec a b :
  common_lock a b = true ->
  exists l ea eb, holds l a = Some ea /\ holds l b = Some eb /\ (ea = true \/ eb = true).
Proof.
  intros H. apply existsb_exists in H. destruct H as [[l e0] [_ H]]. cbn in H.
  destruct (holds l a) as [ea|] eqn:Ha; [|discriminate].
  destruct (holds l b) as [eb|] eqn:Hb; [|discriminate].
  exists l, ea, eb. split; [exact Ha|]. split; [exact Hb|].
  apply orb_true_iff in H. exact H.
Qed.

(* Two different goroutines are never at two sites that share a mutex (one side exclusive). *)
Theorem common_lock_excludes ls t1 t2 a b :
  lreach ls -> t1 <> t2 -> stands_at ls t1 a -> stands_at ls t2 b -> common_lock a b = true -> False.
Proof.
  intros Hr Hne Ha Hb Hc. apply lreach_ok in Hr.
  destruct (common_lock_spec _ _ Hc) as [l [ea [eb [H1 [H2 Hex]]]]].
  destruct (Ha _ _ H1) as [ea' [Hh1 Hx1]]. destruct (Hb _ _ H2) as [eb' [Hh2 Hx2]].
  destruct (Hr t1 t2 l ea' eb' Hne Hh1 Hh2) as [-> ->].
  destruct Hex as [-> | ->]; [specialize (Hx1 eq_refl) | specialize (Hx2 eq_refl)]; discriminate.
Qed.

(* Events of an execution in the order they happened; happens-before is program order plus
   "close(c) before a receive from c that returns because c is closed" (Go memory model). *)
Inductive evk := EWrite (f : string) | ERead (f : string) | EClose (c : string) | ERecvClosed (c : string).
Definition event := (thread * evk)%type.

Inductive hb (tr : list event) : nat -> nat -> Prop :=
| hb_po i j t k1 k2 : i < j -> nth_error tr i = Some (t, k1) -> nth_error tr j = Some (t, k2) -> hb tr i j
| hb_close i j t1 t2 c : i < j -> nth_error tr i = Some (t1, EClose c) -> nth_error tr j = Some (t2, ERecvClosed c) -> hb tr i j
| hb_trans i j k : hb tr i j -> hb tr j k -> hb tr i k.

Theorem publication_orders tr iw ic ir ird tw tr_ c f :
  nth_error tr iw = Some (tw, EWrite f) -> nth_error tr ic = Some (tw, EClose c) -> iw < ic ->
  nth_error tr ir = Some (tr_, ERecvClosed c) -> nth_error tr ird = Some (tr_, ERead f) -> ir < ird ->
  ic < ir ->
  hb tr iw ird.
Proof.
  intros Hw Hc Hwc Hr Hrd Hrr Hcr.
  eapply hb_trans; [eapply hb_po; eassumption|].
  eapply hb_trans; [eapply hb_close; eassumption|].
  eapply hb_po; eassumption.
Qed.

Lemma race_free_sound ex t :
  race_free ex t = true ->
  forall a b, In a t -> In b t -> compatible a b = true \/ exempt ex a b = true.
Proof.
  unfold race_free. intros H a b Ha Hb.
  destruct (compatible a b) eqn:C; [now left|]. destruct (exempt ex a b) eqn:X; [now right|].
  destruct (bad_pairs ex t) eqn:E; [|discriminate]. exfalso. apply (in_nil (a := (a, b))). rewrite <- E.
  apply in_flat_map. exists a. split; [exact Ha|]. apply in_map, filter_In. now rewrite C, X.
Qed.

Definition full_table : list site := access_table ++ user_sites.

(* Two reads are compatible, and so are accesses to different fields.  With these two tests in
   front, the comparison of field names, which is nearly all that evaluation pays for, is made
   only where one side writes; [if], since the virtual machine evaluates both arguments of [&&]. *)
Lemma bad_pairs_guarded ex t :
  bad_pairs ex t
  = flat_map (fun a => map (fun b => (a, b)) (filter (fun b =>
      if s_write a || s_write b
      then if String.eqb (s_field a) (s_field b) then negb (compatible a b) && negb (exempt ex a b) else false
      else false) t)) t.
Proof.
  apply flat_map_ext. intro a. f_equal. apply filter_ext. intro b. unfold compatible.
  destruct (s_write a), (s_write b), (String.eqb (s_field a) (s_field b)); reflexivity.
Qed.

Lemma table_race_free : race_free exemptions full_table = true.
Proof. unfold race_free. rewrite bad_pairs_guarded. vm_compute. reflexivity. Qed.

Lemma lock_order_ranked : ranked lock_order = true /\ reacquire_count = 0%N.
Proof. vm_compute. split; reflexivity. Qed.

Example lock_order_nontrivial : (5 <? List.length lock_order)%nat = true /\ acyclic lock_order = true.
Proof. vm_compute. split; reflexivity. Qed.

Inductive gpath (g : list (string * string)) : string -> string -> Prop :=
| gpath1 x y : In (x, y) g -> gpath g x y
| gpathS x y z : In (x, y) g -> gpath g y z -> gpath g x z.

Lemma ranked_path g x y :
  ranked g = true -> gpath g x y ->
  height g (S (List.length g)) y < height g (S (List.length g)) x.
Proof.
  intros Hr Hp. unfold ranked in Hr. rewrite forallb_forall in Hr.
  induction Hp as [x y Hin | x y z Hin _ IH]; apply Hr, Nat.ltb_lt in Hin; cbn [fst snd] in Hin;
    [exact Hin | exact (Nat.lt_trans _ _ _ IH Hin)].
Qed.

Theorem ranked_no_cycle g x : ranked g = true -> ~ gpath g x x.
Proof. intros Hr Hp. exact (Nat.lt_irrefl _ (ranked_path g x x Hr Hp)). Qed.

(* A deadlock among mutexes is a cycle of goroutines each holding one mutex and waiting for the
   next one's; each such (held, wanted) pair is an "acquired while holding" edge of the code. *)
Fixpoint wait_chain (g : list (string * string)) (first : string) (cur : string) (ws : list (string * string)) : Prop :=
  match ws with
  | [] => cur = first
  | (h, w) :: rest => h = cur /\ In (h, w) g /\ wait_chain g first w rest
  end.

Lemma wait_chain_path g first cur ws :
  ws <> [] -> wait_chain g first cur ws -> gpath g cur first.
Proof.
  revert cur. induction ws as [|[h w] rest IH]; intros cur Hne Hc; [congruence|].
  destruct Hc as [-> [Hin Hrest]].
  destruct rest as [|p rest'].
  - cbn in Hrest. subst w. apply gpath1. exact Hin.
  - eapply gpathS; [exact Hin|]. apply IH; [discriminate| exact Hrest].
Qed.

Theorem no_mutex_deadlock g first ws :
  ranked g = true -> ws <> [] -> ~ wait_chain g first first ws.
Proof. intros Hr Hne Hc. exact (ranked_no_cycle g first Hr (wait_chain_path g first first ws Hne Hc)). Qed.

(* Every two accesses to one field, one of them a write, anywhere in the package's source, are
   separated by one of the recorded reasons; and where the reason is a common mutex, no
   reachable lock state has two goroutines at the two sites. *)
Theorem access_discipline :
  (forall a b, In a full_table -> In b full_table ->
     s_field a = s_field b -> (s_write a = true \/ s_write b = true) ->
     s_ctor a = true \/ s_ctor b = true
     \/ (common_lock a b = true /\
         forall ls t1 t2, lreach ls -> t1 <> t2 -> stands_at ls t1 a -> stands_at ls t2 b -> False)
     \/ published a b = true \/ published b a = true
     \/ same_thread a b = true
     \/ exempt exemptions a b = true)
  /\ (forall first ws, ws <> [] -> ~ wait_chain lock_order first first ws) /\ reacquire_count = 0%N.
Proof.
  split; [|split; [intros first ws; apply no_mutex_deadlock; exact (proj1 lock_order_ranked)
                  |exact (proj2 lock_order_ranked)]].
  intros a b Ha Hb Hf Hw.
  pose proof (fun C ls t1 t2 Hr Hne H1 H2 => @common_lock_excludes ls t1 t2 a b Hr Hne H1 H2 C) as L.
  destruct (race_free_sound _ _ table_race_free a b Ha Hb) as [C|X]; [|tauto].
  unfold compatible in C. rewrite Hf, String.eqb_refl in C. cbn [negb orb] in C.
  repeat (apply orb_prop in C as [C|C]); try tauto.
  (* left: both sites read *)
  apply andb_prop in C as [C1 C2]. destruct Hw as [Hw|Hw]; rewrite Hw in *; discriminate.
Qed.

(* non-vacuity: the table is not empty, contains writes under mutexes, publications and the
   one-goroutine sites *)
Example table_nontrivial :
  (200 <? List.length access_table)%nat = true /\
  existsb (fun s => s_write s && negb (s_ctor s) && match s_locks s with [] => false | _ => true end) access_table = true /\
  existsb (fun s => match s_before s with [] => false | _ => s_write s end) access_table = true /\
  existsb (fun s => match s_after s with [] => false | _ => true end) access_table = true /\
  existsb (fun s => negb (String.eqb (s_thread s) "")) access_table = true.
Proof. vm_compute. repeat split. Qed.
