(* Progress for the composed per-RPC system of Rpc.v, in safety form: in every reachable state the
   work that is still owed (the close frame of a stream whose handler returned or that was refused;
   the caller's terminal result once its context has ended) has an enabled step of the endpoint's own
   goroutines - no step of the peer and no frame delivery is needed - and that internal activity
   terminates (a measure strictly decreases).  Scheduler fairness is assumed, not modelled.
   At the end of the file: when the handler's context is cancelled (C07). *)
From Coq Require Import List Bool Lia.
From GT Require Import RpcProofs RpcSystem.
From GT Require Export RpcCheckV5.
Import ListNotations.

(* the context has ended and the caller has not been given the terminal result yet: the watcher has
   not run, or the winner of the compare-and-swap is inside finishStream *)
Lemma k_cancel_progress k :
  kinv k = true -> k_new k = true -> k_ctx k = true -> k_sig k = false ->
  exists l, In l [CWatch; CRemove; CPublish] /\ kstep k l <> None.
Proof.
  intros Hk Hn Hc Hs. pose proof (kinv_says _ Hk) as K.
  pose proof (ki_stage _ K) as Hst. pose proof (ki_watched _ K) as Hw. rewrite (ki_sig _ K) in Hs.
  unfold kstep, kstep0. destruct (k_watched k).
  - specialize (Hw eq_refl). rewrite Hw in Hst. destruct (k_stage k); try discriminate.
    + exists CRemove. split; [cbn; auto|discriminate].
    + exists CPublish. destruct (k_done k); [|discriminate Hw]. split; [cbn; auto|discriminate].
  - exists CWatch. rewrite Hn, Hc. split; [cbn; auto|]. discriminate.
Qed.

Section Progress.
Variable strict : bool.
Variables (ls : list rlbl) (s : rst).
Hypothesis Hrun : rrun strict r_init ls = Some s.

(* C13 / C14: as long as the close frame of a finished or refused stream is not on the wire, one of the
   server's own goroutines can take a step towards it *)
Theorem rpc_close_frame_always_reachable :
  (v_h (r_v s) = HRet \/ v_h (r_v s) = HRej) -> count_close (h_s s) = 0 ->
  exists l, In l [SFinH; SCloseGo; SRejGo] /\ exists s', rstep strict s (LV l) = Some s'.
Proof.
  intros Hh Hc. pose proof (gs_close_count (h_s s)) as Hcc. rewrite <- (gi_gs _ _ (rpc_run_inv _ _ _ Hrun)) in Hcc.
  assert (Hg : v_g (r_v s) <> GsClosed /\ v_g (r_v s) <> GsClosedWu) by (split; intros E; rewrite E in Hcc; lia).
  destruct (v_close_progress strict (r_v s) (run_vinv0 _ _ _ Hrun) Hh (proj1 Hg) (proj2 Hg)) as (l & Hl & He).
  exists l. split; [exact Hl|]. destruct (vstep strict (r_v s) l) as [[v' em]|] eqn:Hs; [|congruence].
  destruct Hl as [<-|[<-|[<-|[]]]]; cbn [rstep]; rewrite Hs; eauto.
Qed.

(* C07: once the RPC's context has ended, the caller's terminal result is reached by steps of the
   client's own goroutines alone - without waiting for the peer *)
Theorem rpc_cancel_never_waits_for_the_peer :
  k_new (r_k s) = true -> k_ctx (r_k s) = true -> k_sig (r_k s) = false ->
  exists l, In l [CWatch; CRemove; CPublish] /\ exists s', rstep strict s (LK l) = Some s'.
Proof.
  intros Hn Hc Hs. pose proof (run_kinv _ _ _ Hrun) as Hk.
  destruct (k_cancel_progress _ Hk Hn Hc Hs) as (l & Hl & He).
  exists l. split; [exact Hl|]. destruct (kstep (r_k s) l) as [[k' em]|] eqn:Hks; [|congruence].
  destruct Hl as [<-|[<-|[<-|[]]]]; cbn [rstep]; rewrite Hks; eauto.
Qed.
End Progress.

(* The internal activity of either endpoint terminates: every step of a spawned goroutine or of a
   finisher strictly decreases a measure, from any control state ([vstep_measure], [kstep_measure]);
   the theorems the properties cite carry the invariant as a premise, which they do not need
   (nor does [rpc_cancel_notice_cancels_the_handler] below). *)

(* after [kcases]/[vcases]: the guards of the branch say which weights change; the rest is arithmetic *)
Ltac weigh :=
  rewrite ?andb_true_iff, ?negb_true_iff in *;
  repeat match goal with E : _ /\ _ |- _ => destruct E end;
  repeat match goal with E : _ = _ |- _ => rewrite E end; cbn;
  repeat match goal with |- context [if ?b then _ else _] => destruct b end; cbn; lia.

Lemma vstep_measure strict v l v' em :
  In l v_internal -> vstep strict v l = Some (v', em) -> v_measure v' < v_measure v.
Proof. intros Hin Hs. unfold v_measure. destruct Hin as [<-|[<-|[<-|[<-|[<-|[]]]]]]; vcases Hs; weigh. Qed.
Theorem rpc_server_internal_steps_terminate strict v l v' em :
  vinv0 strict v = true -> In l v_internal -> vstep strict v l = Some (v', em) -> v_measure v' < v_measure v.
Proof. intros _. apply vstep_measure. Qed.

Lemma kstep_measure k l k' em :
  In l k_internal -> kstep k l = Some (k', em) -> k_measure k' < k_measure k.
Proof. intros Hin Hs. unfold k_measure. destruct Hin as [<-|[<-|[<-|[<-|[<-|[]]]]]]; kcases Hs; weigh. Qed.
Theorem rpc_client_internal_steps_terminate k l k' em :
  kinv k = true -> In l k_internal -> kstep k l = Some (k', em) -> k_measure k' < k_measure k.
Proof. intros _. apply kstep_measure. Qed.

(* C07: once the tunnel has delivered the cancel notice (the serve loop takes the cancel frame of a
   stream it still has), the handler's context is cancelled *)
Theorem rpc_cancel_notice_cancels_the_handler strict v m v' em :
  vinv strict v = true -> v_tab v = true -> vstep strict v (SLoop FCancel m) = Some (v', em) -> v_ctx v' = true.
Proof. intros _. apply vstep_cancel_ctx. Qed.

(* ... and never otherwise: in every reachable state the handler's context is cancelled exactly when
   the stream has been finished (handler return, cancel notice, a violation) *)
Theorem rpc_handler_context_cancelled_iff_finished strict ls s :
  rrun strict r_init ls = Some s -> (v_ctx (r_v s) = true <-> v_fin (r_v s) <> None).
Proof.
  intros Hrun. rewrite (vi_ctx _ _ (vinv0_says _ _ (run_vinv0 _ _ _ Hrun))).
  destruct (v_fin (r_v s)); cbn; split; congruence.
Qed.
