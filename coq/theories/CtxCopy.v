(* C17: the accessors of tunnel_metadata.go return md.Copy().  Metadata objects live in a
   store of locations so that aliasing is expressible: an accessor allocates a fresh location
   holding a copy; mutation through it cannot be observed through any other location. *)
From Coq Require Import List NArith Arith Lia.
From GT Require Import Trace.
Import ListNotations.

Record store := mkStore { cells : list (nat * mdt); next : nat }.
Definition store_wf (s : store) : Prop := forall l m, In (l, m) (cells s) -> l < next s.

Fixpoint lookup (l : nat) (c : list (nat * mdt)) : option mdt :=
  match c with [] => None | (l', m) :: r => if Nat.eqb l l' then Some m else lookup l r end.
Definition read (s : store) (l : nat) : option mdt := lookup l (cells s).

(* a context value holding the tunnel's opening metadata *)
Record tctx := mkTctx { tmd_loc : option nat; chan : option N }.

(* TunnelMetadataFrom*Context: (copy, ok) *)
Definition get_tunnel_md (s : store) (c : tctx) : store * option nat :=
  match tmd_loc c with
  | None => (s, None)
  | Some l => match read s l with
              | None => (s, None)
              | Some m => (mkStore ((next s, m) :: cells s) (S (next s)), Some (next s))
              end
  end.

(* the application mutates what it was given *)
Fixpoint write_cells (l : nat) (m : mdt) (c : list (nat * mdt)) : list (nat * mdt) :=
  match c with
  | [] => []
  | (l', m') :: r => if Nat.eqb l l' then (l', m) :: r else (l', m') :: write_cells l m r
  end.
Definition write (s : store) (l : nat) (m : mdt) : store := mkStore (write_cells l m (cells s)) (next s).

Lemma read_lt s l m : store_wf s -> read s l = Some m -> l < next s.
Proof.
  unfold read. intros W H. apply (W l m). clear W. revert H.
  induction (cells s) as [|[l' m'] r IH]; intro H; [discriminate|]. cbn in H.
  destruct (Nat.eqb_spec l l') as [->|Hne]; [left; congruence|right; auto].
Qed.

Lemma lookup_write_other l l' m c : l <> l' -> lookup l' (write_cells l m c) = lookup l' c.
Proof.
  intro H. induction c as [|[k v] r IH]; [reflexivity|]. cbn.
  destruct (Nat.eqb_spec l k) as [->|Hk]; cbn.
  - destruct (Nat.eqb_spec l' k); [congruence|reflexivity].
  - destruct (Nat.eqb l' k); [reflexivity|exact IH].
Qed.

Lemma get_tunnel_md_some s c s' l : get_tunnel_md s c = (s', Some l) ->
  exists l0 m, tmd_loc c = Some l0 /\ read s l0 = Some m /\
               l = next s /\ s' = mkStore ((next s, m) :: cells s) (S (next s)).
Proof.
  unfold get_tunnel_md. destruct (tmd_loc c) as [l0|]; [|discriminate].
  destruct (read s l0) as [m|] eqn:E; [|discriminate]. intros [= <- <-]. eauto 6.
Qed.

(* the copy equals the tunnel's metadata ... *)
Theorem accessor_returns_equal_copy s c s' l : store_wf s -> get_tunnel_md s c = (s', Some l) ->
  exists l0, tmd_loc c = Some l0 /\ read s' l = read s l0 /\ l <> l0 /\ store_wf s'.
Proof.
  intros W H. apply get_tunnel_md_some in H as (l0 & m & Ec & E & -> & ->). exists l0.
  pose proof (read_lt s l0 m W E) as Hlt. unfold read at 1. cbn [cells lookup]. rewrite Nat.eqb_refl.
  repeat split; [assumption|congruence|lia|].
  intros k v [[= <- <-]|Hin]; cbn [next]; [|specialize (W k v Hin)]; lia.
Qed.

(* ... and whatever the caller then does to it, nobody else sees a change: not the tunnel's own
   metadata, not the copy any other RPC obtained *)
Theorem mutation_is_private s c s' l m' : store_wf s -> get_tunnel_md s c = (s', Some l) ->
  forall k, k <> l -> read (write s' l m') k = read s' k.
Proof.
  intros W H k Hk. apply lookup_write_other. congruence.
Qed.

Theorem two_copies_are_independent s c s1 l1 s2 l2 m' : store_wf s ->
  get_tunnel_md s c = (s1, Some l1) -> get_tunnel_md s1 c = (s2, Some l2) ->
  l1 <> l2 /\ read (write s2 l1 m') l2 = read s2 l2.
Proof.
  intros W H1 H2. apply get_tunnel_md_some in H1 as (l0 & m1 & _ & _ & -> & ->).
  apply get_tunnel_md_some in H2 as (l0' & m2 & _ & _ & -> & _).
  cbn [next]. split; [lia|]. apply lookup_write_other. lia.
Qed.
