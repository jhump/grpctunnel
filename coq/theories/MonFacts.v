(* Facts tying monitor definitions to the models they abbreviate. *)
From Coq Require Import List Arith NArith Lia.
From GT Require Import Frames FramesProofs MonApp.
Import ListNotations.

Section CountComplete.
Variable A : Type.

Definition size_image (f : dframe A) : option N * N :=
  match f with Env sz d => (Some sz, lenN d) | More d => (None, lenN d) end.

(* the monitor's counting state that stands for a reassembly state, [n] messages counted so far *)
Definition img (st : rstate A) (n : nat) : option (N * N) * nat * bool :=
  match st with
  | RIdle => (None, n, false)
  | RPart sz b => (Some (sz, lenN b), n, false)
  | RFailed => (None, n, true)
  end.

Lemma cm_step_sim st n (f : dframe A) :
  cm_step (img st n) (size_image f) = img (fst (rstep st f)) (n + length (gots [snd (rstep st f)])).
Proof.
  destruct st as [|sz b|], f as [sz' d|d]; cbn [img size_image cm_step rstep]; unfold fill; rewrite ?lenN_app;
    repeat match goal with |- context [if ?c then _ else _] => destruct c end;
    cbn [img fst snd gots length]; rewrite ?lenN_app, ?Nat.add_0_r, ?Nat.add_1_r; reflexivity.
Qed.

Lemma count_sim (fs : list (dframe A)) : forall st n,
  fold_left cm_step (map size_image fs) (img st n) =
  img (fst (rrun st fs)) (n + length (gots (snd (rrun st fs)))).
Proof.
  induction fs as [|f fs IH]; intros st n; cbn [map fold_left rrun]; [now rewrite Nat.add_0_r|].
  rewrite cm_step_sim, IH. destruct (rstep st f) as [st' o]. cbn [fst snd]. destruct (rrun st' fs) as [st'' os]. cbn [fst snd].
  f_equal. destruct o; cbn [gots length]; lia.
Qed.

(* the monitor's count of complete messages is the number of messages the model's reassembly
   obtains from the same frames *)
Theorem count_complete_is_reassembly (fs : list (dframe A)) :
  count_complete (map size_image fs) = length (gots (snd (rrun RIdle fs))).
Proof.
  unfold count_complete. change (None, 0%nat, false) with (img RIdle 0). rewrite count_sim.
  now destruct (fst (rrun RIdle fs)).
Qed.

End CountComplete.
