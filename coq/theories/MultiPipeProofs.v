(* Many streams on one bounded carrier (MultiPipe.v): every stream of every run is a run of the
   single-stream pipeline of Pipe.v, so each stream keeps exactly-once in-order delivery and its
   window discipline whatever the other streams and their applications do; the frame at the head
   of the carrier can always be taken by the receive loop without waiting for any application
   (no head-of-line blocking); and whenever a sender still has something to send, either some
   internal step of the tunnel is enabled or that stream's own receiving application is sitting
   on a full window of unread data - stalled readers plus a bounded transport buffer cannot
   deadlock the tunnel (C01, C03, C05). *)
From Coq Require Import List Arith Lia.
From GT Require Import Lts Frames FramesProofs Pipe PipeProofs MultiPipe.
Import ListNotations.
Set Implicit Arguments.

Section M.
Variable A : Type.
Variables cmax W K : nat.
Hypothesis Kpos : 0 < K.

Notation mst := (mst A).
Notation mstep := (@mstep A cmax K).
Notation mrun := (@mrun A cmax K).
Notation pstep := (@pstep A cmax).

Lemma nth_upd (l : list (pst A)) i x j :
  nth_error (upd l i x) j = if Nat.eqb j i then option_map (fun _ => x) (nth_error l i) else nth_error l j.
Proof.
  revert i j; induction l as [|y r IH]; intros [|i] [|j]; cbn; auto.
  (* left: [] / S i / S j *) now destruct (Nat.eqb j i).
Qed.

Lemma wire_of_cons i j f (w : list (nat * dframe A)) :
  wire_of i ((j, f) :: w) = (if Nat.eqb j i then [f] else []) ++ wire_of i w.
Proof. reflexivity. Qed.

Lemma wire_of_snoc i (w : list (nat * dframe A)) j f :
  wire_of i (w ++ [(j, f)]) = wire_of i w ++ (if Nat.eqb j i then [f] else []).
Proof. unfold wire_of. rewrite flat_map_app. cbn. now rewrite app_nil_r. Qed.

(* stream i with its share of the carrier put back is a state of Pipe.v *)
Definition stream_ok (w : list (nat * dframe A)) (i : nat) (s : pst A) : Prop :=
  p_wire s = [] /\ reachable (prun cmax) (p_init A W) (set_wire s (wire_of i w)).

(* and no frame on the carrier belongs to a stream that does not exist *)
Definition MInv (m : mst) : Prop := forall i,
  match nth_error (m_streams m) i with
  | Some s => stream_ok (m_wire m) i s
  | None => wire_of i (m_wire m) = []
  end.

Lemma minv_ok (m : mst) : MInv m -> forall i s, nth_error (m_streams m) i = Some s -> stream_ok (m_wire m) i s.
Proof. intros I i s Hi. specialize (I i). now rewrite Hi in I. Qed.

Lemma minv_init n : MInv (m_init A W n).
Proof.
  intro i. cbn. destruct (nth_error (repeat (p_init A W) n) i) as [s|] eqn:Hi; [|reflexivity].
  apply nth_error_In, repeat_spec in Hi as ->. split; [reflexivity|now exists []].
Qed.

Lemma minv_upd (m : mst) s' w' :
  MInv m -> forall i s, nth_error (m_streams m) i = Some s -> stream_ok w' i s' ->
  (forall j, j <> i -> wire_of j w' = wire_of j (m_wire m)) ->
  MInv (mkM (upd (m_streams m) i s') w').
Proof.
  intros I i s Hi Hs' Hw j. cbn [m_streams m_wire]. rewrite nth_upd.
  destruct (Nat.eqb_spec j i) as [->|Hne]; [now rewrite Hi|]. unfold stream_ok. rewrite (Hw j Hne). exact (I j).
Qed.

Lemma own_step (m : mst) i s l s' :
  MInv m -> nth_error (m_streams m) i = Some s -> l <> PChunk -> l <> PDeliver ->
  pstep s l = Some s' -> MInv (mkM (upd (m_streams m) i s') (m_wire m)).
Proof.
  intros I Hi Hc Hd E. destruct (minv_ok I _ Hi) as [Hw R].
  destruct (pstep_behind (wire_of i (m_wire m)) Hd Hw E) as [E' Hw']. rewrite (Hw' Hc), app_nil_r in E'.
  apply (minv_upd I Hi); [|reflexivity]. exact (conj (Hw' Hc) (prun_step R E')).
Qed.

Lemma mstep_inv (m : mst) l m' : MInv m -> mstep m l = Some m' -> MInv m'.
Proof.
  intros I H. destruct l as [i msg|i|i|i|]; cbn [MultiPipe.mstep] in H.
  1-3: (* MSubmit, MDequeue, MCredit *) destruct (nth_error (m_streams m) i) as [s|] eqn:Hi; [|discriminate];
       destruct (pstep s _) as [s'|] eqn:E; [|discriminate]; injection H as <-;
       apply (own_step _ I Hi) in E; [exact E|discriminate..].
  - (* MChunk: the frame goes to the end of the carrier, behind the stream's own share of it *)
    destruct (Nat.ltb (length (m_wire m)) K); [|discriminate].
    destruct (nth_error (m_streams m) i) as [s|] eqn:Hi; [|discriminate].
    destruct (pstep s PChunk) as [s'|] eqn:E; [|discriminate].
    destruct (p_wire s') as [|f [|f2 r]] eqn:Ew; try discriminate. injection H as <-.
    destruct (minv_ok I _ Hi) as [Hw R]. apply (minv_upd I Hi).
    + split; [reflexivity|]. rewrite wire_of_snoc, Nat.eqb_refl, <- Ew.
      refine (prun_step R (proj1 (pstep_behind _ _ Hw E))). discriminate.
    + intros j Hne. rewrite wire_of_snoc. destruct (Nat.eqb_spec i j); [congruence|apply app_nil_r].
  - (* MDeliver: the head of the carrier is the head of its stream's share *)
    destruct (m_wire m) as [|[i f] rest] eqn:Ewire; [discriminate|].
    destruct (nth_error (m_streams m) i) as [s|] eqn:Hi; [|discriminate].
    destruct (pstep (set_wire s [f]) PDeliver) as [s1|] eqn:ED; [|discriminate]. injection H as <-.
    apply pstep_deliver_head in ED as [Hw1 EDf]. destruct (minv_ok I _ Hi) as [Hw R].
    apply (minv_upd I Hi); rewrite Ewire in *.
    + split; [exact Hw1|]. rewrite wire_of_cons, Nat.eqb_refl in R. exact (prun_step R (EDf _)).
    + intros j Hne. rewrite wire_of_cons. now destruct (Nat.eqb_spec i j); [congruence|].
Qed.

Lemma mrun_runs : runs_of mstep mrun.
Proof. split; reflexivity. Qed.
(* K = 0 (a carrier that never has room) is excluded throughout, though only multi_no_deadlock needs that *)
Lemma mrun_inv n ls m : mrun (m_init A W n) ls = Some m -> MInv m.
Proof using Kpos. exact (run_inv mstep mrun mrun_runs MInv mstep_inv ls _ m (minv_init n)). Qed.

Lemma multi_stream n ls m i s : mrun (m_init A W n) ls = Some m -> nth_error (m_streams m) i = Some s ->
  exists pls, prun cmax (p_init A W) pls = Some (set_wire s (wire_of i (m_wire m))).
Proof. intros I%mrun_inv Hi. exact (proj2 (minv_ok I _ Hi)). Qed.

(* every stream is a run of the single-stream pipeline *)
Theorem multi_refines n ls m i s : mrun (m_init A W n) ls = Some m -> flat m i = Some s ->
  exists pls, prun cmax (p_init A W) pls = Some s.
Proof.
  unfold flat. intros H Hf. destruct (nth_error (m_streams m) i) as [t|] eqn:Hi; [|discriminate].
  injection Hf as <-. exact (multi_stream _ _ _ H Hi).
Qed.

Theorem multi_delivered_prefix n ls m i s : mrun (m_init A W n) ls = Some m ->
  nth_error (m_streams m) i = Some s -> prefix (p_delivered s) (p_submitted s).
Proof. intros H Hi. destruct (multi_stream _ _ _ H Hi) as [pls Hp]. exact (system_delivered_prefix _ _ _ Hp). Qed.

Theorem multi_window_discipline n ls m i s : mrun (m_init A W n) ls = Some m ->
  nth_error (m_streams m) i = Some s ->
  p_overrun s = false /\ bytes (p_rq s) <= W /\
  p_swin s + bytes (wire_of i (m_wire m)) + bytes (p_rq s) + sum (p_credits s) = W.
Proof.
  intros H Hi. destruct (multi_stream _ _ _ H Hi) as [pls Hp].
  destruct (system_window_discipline _ _ _ Hp) as (H1 & H2 & _ & H4 & _). auto.
Qed.

(* no head-of-line blocking: the receive loop never has to wait for an application *)
Theorem multi_head_always_deliverable n ls m : mrun (m_init A W n) ls = Some m ->
  m_wire m <> [] -> exists m', mstep m MDeliver = Some m'.
Proof.
  intros I%mrun_inv Hne. cbn [MultiPipe.mstep]. destruct (m_wire m) as [|[i f] rest] eqn:Ewire; [congruence|].
  specialize (I i). rewrite Ewire, wire_of_cons, Nat.eqb_refl in I.
  destruct (nth_error (m_streams m) i) as [s|]; [|discriminate].
  destruct (pstep (set_wire s [f]) PDeliver) eqn:ED; [now eexists|]. now apply pstep_none in ED.
Qed.

(* stalled readers + bounded transport buffer cannot deadlock the tunnel *)
Theorem multi_no_deadlock n ls m i s : mrun (m_init A W n) ls = Some m ->
  nth_error (m_streams m) i = Some s -> p_cur s <> None ->
  m_internal_enabled cmax K m = true \/ bytes (p_rq s) = W.
Proof.
  intros H Hi Hc. unfold m_internal_enabled.
  destruct (m_wire m) as [|[j f] rest] eqn:Ewire.
  2:{ (* carrier non-empty: the receive loop can take its head *)
      left. destruct (multi_head_always_deliverable _ _ H) as [m' ->]; [rewrite Ewire; discriminate|reflexivity]. }
  (* carrier empty: the stream is the plain pipeline with an empty carrier *)
  apply mrun_inv in H. destruct (minv_ok H _ Hi) as [Hw [pls Hp]]. rewrite Ewire in Hp.
  change (set_wire s (wire_of i [])) with (rewire s []) in Hp. rewrite <- Hw, rewire_id in Hp.
  destruct (internal_enabled cmax s) eqn:Eint; [left|right; exact (system_blocked_means_full_window_unread _ _ _ Hp Hc Eint)].
  cbn [MultiPipe.mstep]. rewrite Ewire. apply existsb_exists. exists i. split.
  { apply in_seq. split; [lia|]. apply nth_error_Some. congruence. }
  cbn [length]. destruct (Nat.ltb_spec 0 K) as [_|Hk]; [|lia]. rewrite Hi. unfold internal_enabled in Eint.
  destruct (pstep s PChunk) as [s'|] eqn:E1.
  - destruct (pstep_effect E1) as [(_ & [f ->] & _) _]. rewrite Hw. reflexivity.
  - destruct (pstep s PDeliver) as [s'|] eqn:E2; [destruct (pstep_effect E2) as [(_ & f & Ef & _) _]; congruence|].
    destruct (pstep s PCredit); [reflexivity|discriminate].
Qed.

End M.

(* non-vacuity: two streams, carrier capacity 1; stream 0's application never reads, stream 1 still
   gets its message through *)
Example stalled_stream_does_not_block_the_other :
  match mrun 2 1 (m_init nat 4 2)
     [MSubmit 0 [1;2;3;4]; MSubmit 1 [7;8]; MChunk 0; MDeliver; MChunk 0; MDeliver; MChunk 1; MDeliver; MDequeue 1] with
  | Some m => match nth_error (m_streams m) 1, nth_error (m_streams m) 0 with
              | Some s1, Some s0 => p_delivered s1 = [[7;8]] /\ p_delivered s0 = [] /\ bytes (p_rq s0) = 4
              | _, _ => False end
  | None => False
  end.
Proof. vm_compute. repeat split. Qed.
