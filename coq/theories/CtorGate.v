(* The one ordering the access table (Access.v) cannot see and lists as an exemption: the
   receive loop writes useRevision / settings without a lock, and allocateStream / newStream read
   them (holding mu, which the writer does not take).  What orders them is the constructor:
   newTunnelChannel hands the channel out only after it has received from awaitSettings (closed
   by the receive loop after the writes) or - when the stream's context ended first - after it
   has itself marked the channel finished under mu; and allocateStream leaves on [finished]
   before it reaches the reads.  This file models exactly that, one label per step of each party
   (receive loop, constructor, any closer, a caller starting an RPC, the context), and checks
   every reachable state: no read happens before the writes are published.  Without the
   synchronous close on the context path (the code before fix F15) a racing read is reachable. *)
From Coq Require Import List Bool.
From GT Require Import Lts.
Import ListNotations.

Inductive rpc := R0 | R1 | R2 | R3.            (* receive loop: nothing written / useRevision / settings / awaitSettings closed *)
Inductive kpc := K0 | KAwait | KCtx | KRet.    (* constructor: waiting / took awaitSettings / took ctx.Done, not yet closed / returned *)
Inductive upc := U0 | UChecked | URead | UOut. (* caller: not started / saw finished=false under mu / has read / left *)

Record gs := mkG { g_r : rpc; g_k : kpc; g_u : upc; g_ctx : bool; g_fin : bool; g_bad : bool }.
Definition g_init := mkG R0 K0 U0 false false false.

Inductive glbl := GRecv | GCtor | GCaller | GCtxEnd | GCloser.

(* [fixed] = the constructor closes the channel itself before returning on the context path *)
Definition gstep (fixed : bool) (s : gs) (l : glbl) : option gs :=
  match l with
  | GRecv =>
      match g_r s with
      | R0 => Some (mkG R1 (g_k s) (g_u s) (g_ctx s) (g_fin s) (g_bad s))
      | R1 => Some (mkG R2 (g_k s) (g_u s) (g_ctx s) (g_fin s) (g_bad s))
      | R2 => Some (mkG R3 (g_k s) (g_u s) (g_ctx s) (g_fin s) (g_bad s))
      | R3 => None
      end
  | GCtor =>
      match g_k s with
      | K0 => match g_r s with
              | R3 => Some (mkG (g_r s) KAwait (g_u s) (g_ctx s) (g_fin s) (g_bad s))
              | _ => if g_ctx s then Some (mkG (g_r s) KCtx (g_u s) (g_ctx s) (g_fin s) (g_bad s)) else None
              end
      | KAwait => Some (mkG (g_r s) KRet (g_u s) (g_ctx s) (g_fin s) (g_bad s))
      | KCtx => Some (mkG (g_r s) KRet (g_u s) (g_ctx s) (if fixed then true else g_fin s) (g_bad s))
      | KRet => None
      end
  | GCaller =>
      match g_u s with
      | U0 => match g_k s with
              | KRet => if g_fin s then Some (mkG (g_r s) (g_k s) UOut (g_ctx s) (g_fin s) (g_bad s))
                        else Some (mkG (g_r s) (g_k s) UChecked (g_ctx s) (g_fin s) (g_bad s))
              | _ => None                      (* nobody has the channel yet *)
              end
      | UChecked => Some (mkG (g_r s) (g_k s) URead (g_ctx s) (g_fin s)
                               (g_bad s || match g_r s with R3 => false | _ => true end))
      | URead => Some (mkG (g_r s) (g_k s) UOut (g_ctx s) (g_fin s) (g_bad s))
      | UOut => None
      end
  | GCtxEnd => if g_ctx s then None else Some (mkG (g_r s) (g_k s) (g_u s) true (g_fin s) (g_bad s))
  | GCloser =>                                 (* the watcher goroutine / a failing receive loop / Close() *)
      if g_fin s then None else Some (mkG (g_r s) (g_k s) (g_u s) (g_ctx s) true (g_bad s))
  end.

Fixpoint grun (fixed : bool) (s : gs) (ls : list glbl) : option gs :=
  match ls with
  | [] => Some s
  | l :: r => match gstep fixed s l with Some s' => grun fixed s' r | None => None end
  end.

(* the receive loop has closed awaitSettings: its writes are published *)
Definition published (s : gs) : bool := match g_r s with R3 => true | _ => false end.

(* inductive invariant of the repaired constructor *)
Definition ginv (s : gs) : bool :=
  negb (g_bad s) &&
  (* the constructor took the awaitSettings branch only after the close *)
  (match g_k s with KAwait => published s | _ => true end) &&
  (* a returned constructor means: published, or finished *)
  (match g_k s with KRet => published s || g_fin s | _ => true end) &&
  (* a caller past the finished check saw it false, so the writes are published *)
  (match g_u s with UChecked | URead => published s | _ => true end) &&
  (* a caller has the channel only once the constructor has returned *)
  (match g_u s with U0 => true | _ => match g_k s with KRet => true | _ => false end end).

Definition all_l := [GRecv; GCtor; GCaller; GCtxEnd; GCloser].
Definition all_gs : list gs :=
  map (fun '(r, k, u, c, f, b) => mkG r k u c f b)
    (list_prod (list_prod (list_prod (list_prod (list_prod [R0; R1; R2; R3] [K0; KAwait; KCtx; KRet])
       [U0; UChecked; URead; UOut]) [false; true]) [false; true]) [false; true]).

Lemma enum_gs : enum all_gs.
Proof.
  intros [r k u c f b]. apply (in_map (fun '(r, k, u, c, f, b) => mkG r k u c f b) _ (r, k, u, c, f, b)).
  repeat apply in_prod; try apply enum_bool; [destruct r|destruct k|destruct u]; cbn; auto.
Qed.

Lemma ginv_closed : forallb (preserved (gstep true) ginv all_l) all_gs = true.
Proof. vm_compute. reflexivity. Qed.

Lemma ginv_step s l s' : ginv s = true -> gstep true s l = Some s' -> ginv s' = true.
Proof.
  apply (preserved_step _ _ all_l).
  - exact (forallb_In _ _ s ginv_closed (enum_gs s)).
  - destruct l; cbn; auto 10.
Qed.

Lemma grun_runs fixed : runs_of (gstep fixed) (grun fixed).
Proof. split; reflexivity. Qed.

(* every interleaving, any length: no read of useRevision / settings before they are published *)
Theorem settings_never_read_before_published ls : forall s, grun true g_init ls = Some s -> g_bad s = false.
Proof.
  intros s H. apply (run_inv _ _ (grun_runs true) _ ginv_step ls g_init s eq_refl) in H.
  repeat (apply andb_true_iff in H; destruct H as [H ?]). now apply negb_true_iff.
Qed.

(* before the repair: the context ends, the constructor returns, the caller passes the check and
   reads while the receive loop is still writing *)
Theorem unrepaired_constructor_races : exists ls s, grun false g_init ls = Some s /\ g_bad s = true.
Proof.
  exists [GCtxEnd; GCtor; GCtor; GCaller; GRecv; GCaller]. eexists. split; [vm_compute; reflexivity | reflexivity].
Qed.

(* non-vacuity: the good path exists too *)
Example settings_read_after_publication :
  exists s, grun true g_init [GRecv; GRecv; GRecv; GCtor; GCtor; GCaller; GCaller] = Some s /\ g_u s = URead /\ g_bad s = false.
Proof. eexists. split; [vm_compute; reflexivity | split; reflexivity]. Qed.
