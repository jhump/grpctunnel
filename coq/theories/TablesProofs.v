(* Proofs about the stream tables: id discipline (C08), classification of frames for
   finished / rejected / never-seen ids (C07, C09), and the tunnel-level theorem that with
   two conforming endpoints no RPC-level event ever produces a tunnel error (C03, C10). *)
From Coq Require Import List ZArith Bool Lia.
From GTgen Require Import Params.
From GT Require Import Lts Tables.
Import ListNotations.
Local Open Scope Z_scope.

Lemma zmem_In x l : zmem x l = true <-> In x l.
Proof.
  unfold zmem. rewrite existsb_exists. setoid_rewrite Z.eqb_eq.
  split; [intros (y & H & ->); exact H | eauto].
Qed.
Lemma zmem_false x l : zmem x l = false <-> ~ In x l.
Proof. rewrite <- zmem_In. destruct (zmem x l); split; congruence. Qed.
Lemma zremove_In x y l : In y (zremove x l) <-> In y l /\ y <> x.
Proof.
  unfold zremove. rewrite filter_In. split; intros [H1 H2]; split; try assumption.
  - intro; subst. rewrite Z.eqb_refl in H2. discriminate.
  - apply negb_true_iff. apply Z.eqb_neq. congruence.
Qed.

Lemma create_cases s id cl rev m :
  let '(s', r) := st_create s id cl rev m in
  match r with
  | CTunnelErr => s' = s /\ (In id (s_active s) \/ id <= s_last s)
  | CReject _ => s_last s < id /\ ~ In id (s_active s) /\ s_last s' = id /\ s_active s' = s_active s
  | CAccept => s_last s < id /\ ~ In id (s_active s) /\ s_last s' = id /\ s_active s' = id :: s_active s /\
               cl = false /\ (rev = 0 \/ rev = 1) /\ m = MOk
  end.
Proof.
  unfold st_create. destruct (zmem id (s_active s)) eqn:Em; [apply zmem_In in Em; auto|].
  apply zmem_false in Em. destruct (Z.leb_spec id (s_last s)); [auto|].
  destruct cl; [cbn; auto|]. destruct ((rev =? 0) || (rev =? 1)) eqn:Er; [|cbn; auto].
  apply orb_prop in Er. rewrite !Z.eqb_eq in Er. destruct m; cbn; auto 8.
Qed.

(* an id is refused (tunnel error) exactly when it is not greater than all seen so far *)
Theorem create_refuses_old_ids s id cl rev m : id <= s_last s -> snd (st_create s id cl rev m) = CTunnelErr.
Proof.
  intro H. unfold st_create. destruct (zmem id (s_active s)); [reflexivity|].
  replace (id <=? s_last s) with true by lia. reflexivity.
Qed.

Lemma st_get_known s id : id <= s_last s -> st_get s id <> GTunnelErr.
Proof.
  intro H. unfold st_get. destruct (zmem id (s_active s)); [discriminate|].
  replace (id <=? s_last s) with true by lia. discriminate.
Qed.
Lemma ct_get_known c id : c_created c = true -> id <= c_last c -> ct_get c id <> GTunnelErr.
Proof.
  intros Hc H. unfold ct_get. destruct (zmem id (c_active c)); [discriminate|].
  rewrite Hc. replace (id <=? c_last c) with true by lia. discriminate.
Qed.

(* every id the server has recorded - accepted, rejected for any reason, or finished - is
   never again the cause of a tunnel error: further frames for it are routed or ignored *)
Theorem recorded_id_never_kills s id cl rev m :
  snd (st_create s id cl rev m) <> CTunnelErr ->
  forall s', (s_last s' >= id) -> st_get s' id <> GTunnelErr.
Proof.
  intros _ s' H. apply st_get_known. lia.
Qed.

Theorem never_seen_id_is_tunnel_error s id : s_last s < id -> ~ In id (s_active s) -> st_get s id = GTunnelErr.
Proof.
  intros H Hn. unfold st_get. apply zmem_false in Hn. rewrite Hn.
  replace (id <=? s_last s) with false by lia. reflexivity.
Qed.

Theorem finished_id_is_ignored s id : In id (s_active s) -> id <= s_last s -> st_get (st_remove s id) id = GIgnore.
Proof.
  intros Hin Hle. unfold st_get, st_remove. cbn [s_active s_last].
  replace (zmem id (zremove id (s_active s))) with false.
  - replace (id <=? s_last s) with true by lia. reflexivity.
  - symmetry. apply zmem_false. rewrite zremove_In. tauto.
Qed.

(* shutdown refuses with the first rejection code and never inserts or disturbs an entry *)
Theorem closing_refuses s id rev m : s_last s < id -> ~ In id (s_active s) ->
  st_create s id true rev m = (mkStab id (s_active s), CReject (nth 0 create_rejection_codes 0%N)).
Proof.
  intros H Hn. unfold st_create. apply zmem_false in Hn. rewrite Hn.
  replace (id <=? s_last s) with false by lia. reflexivity.
Qed.

Lemma alloc_spec c c' id : ct_alloc c = (c', Some id) ->
  id = c_last c + 1 /\ c' = mkCtab id true (id :: c_active c) false.
Proof.
  unfold ct_alloc. destruct (c_finished c); [discriminate|]. destruct (c_last c <? 0); [discriminate|].
  intros [= <- <-]; auto.
Qed.

Theorem alloc_fresh_increasing c c' id : ct_alloc c = (c', Some id) ->
  id = c_last c + 1 /\ c_last c' = id /\ c_created c' = true /\ c_active c' = id :: c_active c.
Proof.
  intro H. destruct (alloc_spec _ _ _ H) as [E ->]. auto.
Qed.

Theorem alloc_fails_when_finished c : c_finished c = true -> ct_alloc c = (c, None).
Proof. intro H. unfold ct_alloc. now rewrite H. Qed.

(* a well-formed client-to-server queue: new_stream ids strictly increase past [last], other frames
   only for ids seen *)
Fixpoint wfq (last : Z) (seen : list Z) (q : list cframe) : Prop :=
  match q with
  | [] => True
  | FNew id _ _ _ :: r => last < id /\ wfq id (id :: seen) r
  | FOther id :: r => In id seen /\ wfq last seen r
  end.

Lemma wfq_seen_mono last seen seen' q : (forall x, In x seen -> In x seen') -> wfq last seen q -> wfq last seen' q.
Proof.
  revert last seen seen'. induction q as [|[id cl rev m|id] q IH]; intros last seen seen' Hs H; [exact I| |].
  - destruct H as [H1 H2]. split; [assumption|]. eapply IH; [|exact H2]. intros x [->|Hx]; [left; reflexivity|right; auto].
  - destruct H as [H1 H2]. split; [auto|]. eapply IH; eassumption.
Qed.

(* what the server will have recorded once it has processed the queue: the last id and the ids seen *)
Definition track (st : Z * list Z) (f : cframe) : Z * list Z :=
  match f with FNew id _ _ _ => (id, id :: snd st) | FOther _ => st end.
Definition after last seen q := fold_left track q (last, seen).
Arguments after : simpl never.

Lemma after_snoc last seen q f : after last seen (q ++ [f]) = track (after last seen q) f.
Proof. unfold after. now rewrite fold_left_app. Qed.

Lemma after_new last seen id cl rev m q : after last seen (FNew id cl rev m :: q) = after id (id :: seen) q.
Proof. reflexivity. Qed.
Lemma after_other last seen id q : after last seen (FOther id :: q) = after last seen q.
Proof. reflexivity. Qed.

Lemma after_incl q : forall last seen, incl seen (snd (after last seen q)).
Proof.
  induction q as [|[id cl rev m|id] q IH]; intros last seen x Hx; [exact Hx| |].
  - rewrite after_new. apply IH. now right.
  - rewrite after_other. apply IH. exact Hx.
Qed.

Lemma wfq_app q q' : forall last seen,
  wfq last seen (q ++ q') <-> wfq last seen q /\ wfq (fst (after last seen q)) (snd (after last seen q)) q'.
Proof.
  induction q as [|[id cl rev m|id] q IH]; intros last seen; cbn [app wfq]; [unfold after; cbn; tauto| |].
  - rewrite after_new, IH. tauto.
  - rewrite after_other, IH. tauto.
Qed.

(* a fresh id is recorded, whatever else createStream decides *)
Lemma create_fresh s id cl rev m : s_last s < id -> ~ In id (s_active s) ->
  let '(s', r) := st_create s id cl rev m in
  r <> CTunnelErr /\ s_last s' = id /\ incl (s_active s') (id :: s_active s).
Proof.
  intros Hl Hn. pose proof (create_cases s id cl rev m) as C. destruct (st_create s id cl rev m) as [s' []].
  - destruct C as [_ [C|C]]; [contradiction|lia].
  - destruct C as (_ & _ & C3 & ->). repeat split; [discriminate|assumption|apply incl_tl, incl_refl].
  - destruct C as (_ & _ & C3 & -> & _). repeat split; [discriminate|assumption|apply incl_refl].
Qed.

(* the ids the client has allocated are exactly those the server will have seen after the queue;
   the server's table knows only ids it has seen, all of them at most the last recorded *)
Record TInv (t : tun) : Prop := {
  i_err : t_err t = false;
  i_alloc : forall id, In id (t_alloc t) -> id <= c_last (t_c t) /\ c_created (t_c t) = true;
  i_q : wfq (s_last (t_s t)) (t_seen t) (t_c2s t);
  i_after : snd (after (s_last (t_s t)) (t_seen t) (t_c2s t)) = t_alloc t;
  i_top : fst (after (s_last (t_s t)) (t_seen t) (t_c2s t)) <= c_last (t_c t);
  i_seen_last : forall id, In id (t_seen t) -> id <= s_last (t_s t);
  i_active : forall id, In id (s_active (t_s t)) -> In id (t_seen t);
  i_s2c : forall id, In id (t_s2c t) -> In id (t_seen t)
}.

Lemma tinv0 : TInv tun0.
Proof. constructor; unfold after; cbn; try tauto. unfold last_seen0. lia. Qed.

Lemma tstep_inv t l t' : TInv t -> tstep t l = Some t' -> TInv t'.
Proof.
  intros [Ierr Ialloc Iq Ia It Isl Iact Is2c] H. destruct t as [c s q r seen alloc err]. cbn in * |-.
  destruct l; cbn [tstep t_c t_s t_c2s t_s2c t_seen t_alloc t_err] in H.
  - (* TNew: allocation and emission of new_stream in one critical section *)
    destruct (ct_alloc c) as [c' [id|]] eqn:Ea; [|discriminate]. injection H as <-.
    destruct (alloc_spec _ _ _ Ea) as [-> ->]. constructor; cbn; auto.
    + (* i_alloc *) intros x [<-|Hx]; [split; [lia|reflexivity]|]. destruct (Ialloc x Hx). split; [lia|reflexivity].
    + (* i_q *) apply wfq_app. cbn. split; [assumption|lia].
    + (* i_after *) rewrite after_snoc. cbn. now rewrite Ia.
    + (* i_top *) rewrite after_snoc. cbn. lia.
  - (* TClientEmit *)
    destruct (zmem id alloc) eqn:Em; [|discriminate]. injection H as <-. apply zmem_In in Em.
    constructor; cbn; auto.
    + (* i_q *) apply wfq_app. cbn. rewrite Ia. auto.
    + (* i_after *) now rewrite after_snoc.
    + (* i_top *) now rewrite after_snoc.
  - (* TServerEmit *)
    destruct (zmem id seen) eqn:Em; [|discriminate]. injection H as <-. apply zmem_In in Em.
    constructor; auto. (* left: i_s2c *) intros x Hx. apply in_app_or in Hx as [Hx|[<-|[]]]; auto.
  - (* TClientFinish *)
    injection H as <-. constructor; auto.
  - (* TServerFinish *)
    injection H as <-. constructor; auto. (* left: i_active *) intros x Hx. apply zremove_In in Hx as [Hx _]. auto.
  - (* TServerLoop *)
    destruct q as [|[id cl rev m|id] rest]; [discriminate| |].
    + (* FNew *) destruct Iq as [Hlt Hq].
      assert (Hn : ~ In id (s_active s)) by (intro Hin; apply Iact, Isl in Hin; lia).
      pose proof (create_fresh s id cl rev m Hlt Hn) as C.
      destruct (st_create s id cl rev m) as [s' r']. destruct C as (Hr & Hl & Hact). injection H as <-.
      constructor; cbn; rewrite ?Hl; auto.
      * (* i_err *) rewrite Ierr. now destruct r'.
      * (* i_seen_last *) intros x [<-|Hx]; [lia|]. apply Isl in Hx. lia.
      * (* i_active *) intros x Hx. destruct (Hact x Hx) as [<-|Hx']; auto.
    + (* FOther *) injection H as <-. destruct Iq as [Hin Hq]. constructor; auto.
      (* left: i_err *) rewrite Ierr. apply Isl, st_get_known in Hin. now destruct (st_get s id).
  - (* TClientLoop: the id was seen, so allocated *)
    destruct r as [|id rest]; [discriminate|]. injection H as <-. constructor; auto.
    + (* i_err *) rewrite Ierr.
      assert (Hin : In id alloc) by (rewrite <- Ia; apply after_incl, Is2c; left; reflexivity).
      apply Ialloc in Hin as [Hr Hc]. apply ct_get_known with (id := id) in Hc; [|exact Hr]. now destruct (ct_get c id).
    + (* i_s2c *) intros x Hx. apply Is2c. now right.
Qed.

Lemma trun_runs : runs_of tstep trun.
Proof. split; reflexivity. Qed.

Lemma trun_inv ls t : trun tun0 ls = Some t -> TInv t.
Proof. exact (run_inv _ _ trun_runs TInv tstep_inv ls tun0 t tinv0). Qed.

(* C03 (safety core): whatever RPCs are started, refused (shutdown, unsupported revision,
   malformed or unknown method), finished or cancelled at either end, in whatever order frames
   are emitted and processed, neither receive loop ever sees a tunnel-level protocol error *)
Theorem no_rpc_event_kills_the_tunnel ls t : trun tun0 ls = Some t -> t_err t = false.
Proof. intro H. exact (i_err _ (trun_inv ls t H)). Qed.

(* C08: new_stream ids reach the server strictly increasing, and the ids of distinct RPCs differ *)
Theorem ids_increase_on_the_wire ls t : trun tun0 ls = Some t -> wfq (s_last (t_s t)) (t_seen t) (t_c2s t).
Proof. intro H. exact (i_q _ (trun_inv ls t H)). Qed.
