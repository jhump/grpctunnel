(* The finishers' control state of CliFinish is finite (values are abstracted to "whose"), so its
   inductive invariant is checked on every state by computation.  What the reader has observed
   ([cf_read]) is kept out of that sweep: no finisher's step looks at it, and the read itself is
   judged by what the invariant says about a state whose receiver is closed. *)
From Coq Require Import List Bool.
From GT Require Import Lts CliFinish.
Import ListNotations.

Definition who_eqb (a b : who2) := match a, b with FA, FA | FB, FB => true | _, _ => false end.
Definition stage_ge2 (s : stage) := match s with StCas | StRemove => false | _ => true end.
Definition stage_num (s : stage) : nat :=
  match s with StCas => 0 | StRemove => 1 | StStep2 => 2 | StStep3 => 3 | StStep4 => 4 | StEnd => 5 end.

(* inductive invariant for the repaired order; it does not mention [cf_read] *)
Definition inv_b (s : cf) : bool :=
  match cf_done s with
  | None =>
      (* nobody has won yet: nothing published, nobody past the CAS *)
      match cf_a s, cf_b s, cf_trailers s with
      | StCas, StCas, None => negb (cf_signal s) && negb (cf_rcv_closed s)
      | _, _, _ => false
      end
  | Some w =>
      let '(ws, ls) := match w with FA => (cf_a s, cf_b s) | FB => (cf_b s, cf_a s) end in
      (* the loser is still before its CAS or has given up *)
      (match ls with StCas | StEnd => true | _ => false end) &&
      (match ws with StCas => false | _ => true end) &&
      (* publication follows the winner's program counter *)
      (match cf_trailers s with
       | None => Nat.leb (stage_num ws) 2
       | Some t => who_eqb t w && Nat.leb 3 (stage_num ws) end) &&
      Bool.eqb (cf_signal s) (Nat.leb 4 (stage_num ws)) &&
      Bool.eqb (cf_rcv_closed s) (Nat.leb 5 (stage_num ws))
  end.

(* when the reader is released, the winner's outcome and trailers are what it will find *)
Definition released_ok (s : cf) : bool :=
  if cf_rcv_closed s then
    match cf_done s, cf_trailers s with
    | Some FA, Some FA | Some FB, Some FB => cf_signal s
    | _, _ => false
    end
  else true.

Definition all_who := [None; Some FA; Some FB].
Definition all_stage := [StCas; StRemove; StStep2; StStep3; StStep4; StEnd].
Definition core_states : list cf :=
  map (fun '(d, t, sg, rc, a, b) => mkCf d t sg rc a b None)
    (list_prod (list_prod (list_prod (list_prod (list_prod all_who all_who) [false; true]) [false; true]) all_stage) all_stage).

Definition core (s : cf) : cf := mkCf (cf_done s) (cf_trailers s) (cf_signal s) (cf_rcv_closed s) (cf_a s) (cf_b s) None.

Lemma inv_b_core s : inv_b (core s) = inv_b s.
Proof. reflexivity. Qed.

Lemma core_in s : In (core s) core_states.
Proof.
  apply (in_map (fun '(d, t, sg, rc, a, b) => mkCf d t sg rc a b None) _
           (cf_done s, cf_trailers s, cf_signal s, cf_rcv_closed s, cf_a s, cf_b s)).
  assert (Hwho : enum all_who) by (intros [[]|]; cbn; auto).
  assert (Hstage : enum all_stage) by (intros []; cbn; auto 10).
  repeat apply in_prod; auto using enum_bool.
Qed.

Lemma finishers_checked :
  forallb (fun s => preserved (cf_step false) inv_b [StepA; StepB] s && implb (inv_b s) (released_ok s))
    core_states = true.
Proof. vm_compute. reflexivity. Qed.

(* a finisher's step neither reads nor writes [cf_read] *)
Lemma finisher_step_core cfst s l s' : In l [StepA; StepB] -> cf_step cfst s l = Some s' ->
  cf_step cfst (core s) l = Some (core s') /\ cf_read s' = cf_read s.
Proof.
  intros Hl Hs. destruct s as [d t sg rc a b rd], l.
  - (* StepA *) destruct a, cfst, d; inversion Hs; split; reflexivity.
  - (* StepB *) destruct b, cfst, d; inversion Hs; split; reflexivity.
  - (* Read is not a finisher's label *) cbn in Hl. intuition discriminate.
Qed.

Lemma cf_runs cfst : runs_of (cf_step cfst) (cf_run cfst).
Proof. split; reflexivity. Qed.

Definition Inv (s : cf) : Prop := inv_b s = true /\ read_ok s = true.

Lemma step_inv s l s' : Inv s -> cf_step false s l = Some s' -> Inv s'.
Proof.
  intros [Hi Hr] Hs.
  pose proof (forallb_In _ _ _ finishers_checked (core_in s)) as C. apply andb_true_iff in C as [C1 C2].
  assert (Hl : In l [StepA; StepB] \/ l = Read) by (destruct l; cbn; auto).
  destruct Hl as [Hl | ->].
  - destruct (finisher_step_core _ _ _ _ Hl Hs) as [Hc Hrd]. split.
    + rewrite <- (inv_b_core s) in Hi. rewrite <- (inv_b_core s').
      exact (preserved_step _ _ _ _ _ _ C1 Hl Hi Hc).
    + unfold read_ok. now rewrite Hrd.
  - (* the read: the finishers' state stays, and the receiver is closed *)
    rewrite inv_b_core, Hi in C2.
    destruct s as [d t sg rc a b rd]. destruct rc; [|discriminate]. destruct rd; inversion Hs.
    split; [exact Hi|]. cbn in C2. now destruct t as [[]|], sg.
Qed.

(* every interleaving of the two finishers and the reader, of any length: the caller's terminal
   result is the outcome of the finisher that won the race and Trailer(), read right after,
   returns that same finisher's trailers *)
Theorem terminal_result_and_trailers_agree ls s : cf_run false cf_init ls = Some s -> read_ok s = true.
Proof. intro H. exact (proj2 (run_inv _ _ (cf_runs false) Inv step_inv ls cf_init s (conj eq_refl eq_refl) H)). Qed.

(* done is write-once: the first writer wins, whatever happens later *)
Theorem first_writer_wins ls s w : cf_done s = Some w -> forall s', cf_run false s ls = Some s' -> cf_done s' = Some w.
Proof.
  intros Hd s'. apply (run_inv _ _ (cf_runs false) (fun s => cf_done s = Some w)); [|exact Hd].
  clear. intros [d t sg rc a b rd] l s'. cbn [cf_done]. intros -> E. destruct l.
  - destruct a; inversion E; reflexivity.
  - destruct b; inversion E; reflexivity.
  - destruct rc; [|discriminate]. destruct rd; inversion E; reflexivity.
Qed.

(* the order before the repair violates the property: the reader is released before the
   trailers are stored *)
Theorem close_first_refuted : exists ls s, cf_run true cf_init ls = Some s /\ read_ok s = false.
Proof.
  exists [StepA; StepA; StepA; Read]. eexists. split; [vm_compute; reflexivity|reflexivity].
Qed.
